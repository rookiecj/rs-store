(* ChannelBursts.v — bursts of any length with no consumer running (C06): DropOldest keeps the
   newest `cap` items, DropLatest the oldest; the iteration of the one-send lemmas of
   ChannelProofs.v. *)
From RS Require Import Base Channel ChannelProofs.

Section ChannelBursts.
Context {A : Type}.
Implicit Types c : chan A.

Lemma skipn_add {T} (k j : nat) (l : list T) : skipn (k + j) l = skipn j (skipn k l).
Proof.
  revert l. induction k as [|k IH]; intros l; [reflexivity|].
  destruct l as [|y l']; cbn [Nat.add skipn]; [now destruct j|apply IH].
Qed.
Lemma lastn_app_lastn {T} n (a b : list T) : lastn n (lastn n a ++ b) = lastn n (a ++ b).
Proof.
  unfold lastn. rewrite !app_length, !skipn_app, !skipn_length, <- skipn_add.
  f_equal; f_equal; lia.
Qed.
Lemma firstn_app_firstn {T} n (a b : list T) : firstn n (firstn n a ++ b) = firstn n (a ++ b).
Proof.
  rewrite !firstn_app, firstn_firstn, firstn_length, Nat.min_id. do 2 f_equal. lia.
Qed.

Theorem drop_oldest_burst : forall l c, pol c = DropOldest -> 0 < cap c -> bounded c ->
  q (fst (send_all c l)) = lastn (cap c) (q c ++ l) /\ cap (fst (send_all c l)) = cap c.
Proof.
  induction l as [|x r IH]; intros c P C B; cbn [send_all].
  - cbn [fst]. now rewrite app_nil_r, lastn_short.
  - destruct (drop_oldest_one c x P C B) as (c' & ok & d & -> & Q & C' & P' & B').
    destruct (IH c') as [Q2 C2]; [congruence|lia|exact B'|].
    destruct (send_all c' r) as [c'' d']. cbn [fst] in *.
    now rewrite Q2, C2, Q, C', lastn_app_lastn, <- app_assoc.
Qed.

Theorem drop_latest_burst : forall l c, pol c = DropLatest -> bounded c ->
  q (fst (send_all c l)) = firstn (cap c) (q c ++ l) /\ cap (fst (send_all c l)) = cap c.
Proof.
  induction l as [|x r IH]; intros c P B; cbn [send_all].
  - cbn [fst]. now rewrite app_nil_r, firstn_all2.
  - destruct (drop_latest_one c x P B) as (c' & ok & d & -> & Q & C' & P' & B' & _).
    destruct (IH c') as [Q2 C2]; [congruence|exact B'|].
    destruct (send_all c' r) as [c'' d']. cbn [fst] in *.
    now rewrite Q2, C2, Q, C', firstn_app_firstn, <- app_assoc.
Qed.

End ChannelBursts.
