(* WorldLive.v — deadlock freedom (C13). For any program, a world in which no thread can step and
   none waits for a subscriber's lock, thread or channel (`sub_edge`) is quiescent
   (`blocked_is_quiescent`). In the core of the API - every call but those of channeled subscribers
   and iterators (`frag_call`) - no thread stands at such an edge (`core_deadlock_free`). Releasing
   an iterator early is the known finding F5; see Props/C13.v. *)
From RS Require Import Base Channel ChannelProofs World WorldTactics WorldStep WorldProofs WorldQueue WorldStop WorldBlock WorldEffects WorldSids WorldFlush.

Section WorldLive.
Context {State : Type}.
Variable cfg : wconfig (State := State).
Notation world := (world (State := State)).
Notation step := (step cfg).
Notation thread := (thread (State := State)).
Implicit Types w : World.world (State := State).

Definition frag_call (c : call) : Prop :=
  match c with
  | CSubscribed _ _ _ | CIter _ _ _ | CNext _ | CDropIter _ | CDrain _ => False
  | _ => True
  end.
Definition simple_kind (k : subkind) : bool :=
  match k with SKDirect | SKSelector _ => true | _ => false end.
(* `Forall (of_kind simple_kind)` (WorldFlush.v) as a test *)
Definition simple_subs (l : list subentry) : Prop := forallb (fun s => simple_kind (se_kind s)) l = true.
Definition inv_frag := inv_kinds (State := State) simple_kind.

Lemma simple_subs_cons x l : simple_kind (se_kind x) = true -> simple_subs l -> simple_subs (x :: l).
Proof. unfold simple_subs. cbn. intros -> ->. reflexivity. Qed.

Lemma frag_k_call c : frag_call c -> k_call simple_kind c.
Proof. destruct c; cbn; auto. Qed.

Definition keys_ok w : Prop := NoDup (map fst (w_threads w)).

Theorem step_keys w t w' : keys_ok w -> step w t = Some w' -> keys_ok w'.
Proof.
  intros K H. unfold keys_ok.
  destruct (step_table cfg _ _ _ H) as (th & _ & [? _ -> _|? ? ? _ _ ->]); repeat apply NoDup_put; exact K.
Qed.

Theorem reachable_keys reducers mws progs w : (length progs <= 100)%nat ->
  reachable cfg reducers mws progs w -> keys_ok w.
Proof. intros L. apply reachable_ind; [now apply init_keys|intros; eapply step_keys; eauto]. Qed.

(* the namespaces of World.v: clients below `reducer_tid` = 100, pool workers even from
   `first_worker_tid` = 1000, `chan_tid` odd *)
Definition tid_ok (t : N) (th : thread) : Prop :=
  match th with
  | TClient _ _ _ => (t < 100)%N \/ (N.even t = true /\ (1000 <= t)%N)
  | TReducer _ => t = reducer_tid
  | TChan sid _ => t = chan_tid sid
  end.
Definition inv_tid_kinds w : Prop := forall t th, get_thread (w_threads w) t = Some th -> tid_ok t th.

Lemma client_not_chan t s r prog pc : tid_ok t (TClient r prog pc) -> t <> chan_tid s.
Proof. intros [L|[E _]] ->; [unfold chan_tid in L; lia|]. rewrite chan_tid_odd in E. discriminate. Qed.

Lemma succ_tid_ok t th th' : succ_of th th' -> tid_ok t th -> tid_ok t th'.
Proof. destruct th, th'; try contradiction; [auto|auto|now intros ->]. Qed.
Lemma started_tid_ok w w' t2 th2 : fresh_ok w -> started w w' t2 th2 -> tid_ok t2 th2.
Proof.
  intros (EV & GE & _) [(sid & -> & -> & _)|(-> & _ & k & p & v & -> & _)]; [reflexivity|right; now split].
Qed.

Theorem step_tid_kinds w t w' : fresh_ok w -> inv_tid_kinds w -> step w t = Some w' -> inv_tid_kinds w'.
Proof.
  intros F I H t1 th1 G. destruct (step_entry cfg _ _ _ _ _ H G) as [(th & TH & -> & S)|[NEW|G0]].
  - exact (succ_tid_ok _ _ _ S (I _ _ TH)).
  - exact (started_tid_ok _ _ _ _ F NEW).
  - exact (I _ _ G0).
Qed.

Lemma the_reducer w t pc pc0 : inv_tid_kinds w -> get_thread (w_threads w) reducer_tid = Some (TReducer pc0) ->
  get_thread (w_threads w) t = Some (TReducer pc) -> t = reducer_tid /\ pc = pc0.
Proof. intros TK G0 G. pose proof (TK _ _ G : t = reducer_tid) as ->. split; congruence. Qed.

Definition has_closer (ths : list (N * thread)) : Prop :=
  exists tc r prog stop ph, get_thread ths tc = Some (TClient r prog (PCloseSending stop ph)).
Definition inv_closer w : Prop :=
  w_tx_open w = false -> tx_alive (w_dq w) = true -> has_closer (w_threads w).

(* another thread's step leaves the closer where it is: a new thread takes the id of none *)
Lemma closer_kept w t w' : fresh_ok w -> inv_tid_kinds w -> step w t = Some w' -> has_closer (w_threads w) ->
  (forall r prog stop ph, get_thread (w_threads w) t <> Some (TClient r prog (PCloseSending stop ph))) ->
  has_closer (w_threads w').
Proof.
  intros (EV & _ & FR) TK H (tc & r & prog & stop & ph & G) N.
  destruct (step_keeps cfg _ _ _ _ _ H G) as [(-> & _)|[(th2 & NEW & _)|G']]; [destruct (N _ _ _ _ G)| |do 5 eexists; exact G'].
  destruct NEW as [(sid & E & _)|(-> & _)]; [destruct (client_not_chan _ _ _ _ _ (TK _ _ G) E)|].
  rewrite FR in G by (exact EV || lia). discriminate G.
Qed.

Theorem step_closer w t w' : fresh_ok w -> inv_tid_kinds w -> inv_closer w -> step w t = Some w' -> inv_closer w'.
Proof.
  intros F TK I H. pose proof (closer_kept w t w' F TK H) as CK. step_cases H; try open_at AT; unfold inv_closer; simp_step.
  (* the pc of the stepping thread, which is not inside the send of the marker but in CS_close_* *)
  all: try (destruct INV as [->|(? & ? & -> & _)]).
  (* most rules leave the flag and the connection alone: the closer stays *)
  all: try rewrite (send_alive _ _ _ _ _ _ SEND).
  all: try (intros O A; apply CK; [exact (I O A)|intros; congruence]; fail).
  1,2: (* CS_close_send: the thread becomes or stays the closer *) intros _ _; do 5 eexists; apply get_put_same.
  1,2: (* CS_close_sent *) discriminate.
Qed.

(* pool threads run bodies: they only dispatch and panic (so `in_call`, WorldQueue.v, keeps them out of
   close and stop) *)
Definition body_call (c : call) : Prop := match c with CDispatch _ _ | CPanic => True | _ => False end.
Definition worker_call (r : role) (c : call) : Prop := match r with Worker _ => body_call c | Client => True end.
Definition inv_bodies w : Prop := threads_all (progs_all worker_call) (w_threads w).

Lemma worker_not_joining k prog : in_call (State := State) (TClient (Worker k) prog PStopJoin) -> Forall body_call prog -> False.
Proof.
  intros [E|[(? & ? & E & _)|(c & rest & done & -> & W)]] F; try discriminate E.
  apply Forall_inv in F. destruct c; try contradiction; discriminate W.
Qed.

Definition is_stop_pc (th : thread) : bool :=
  match th with TClient _ _ PStopTake | TClient _ _ PStopJoin => true | _ => false end.
Definition inv_past_close w : Prop :=
  tx_alive (w_dq w) = true -> threads_all (fun th => is_stop_pc th = false) (w_threads w).

Theorem step_past_close w t w' : inv_closer w -> inv_past_close w -> step w t = Some w' -> inv_past_close w'.
Proof.
  intros IC SC H.
  step_cases H; unfold inv_past_close; simp_step.
  all: try rewrite (send_alive _ _ _ _ _ _ SEND).
  all: intros A; try discriminate A.
  all: try (repeat (apply threads_all_put; [|autounfold with next_pc; repeat break_goal_match; reflexivity]); exact (SC A)).
  - (* CS_close_again: were the queue still connected, the closer would hold TX *)
    destruct (IC OPEN A) as (tc & ? & ? & ? & ? & G). apply (free_get holds_tx _ _ _ TXFREE) in G. discriminate G.
  - (* CS_take *) apply (SC A) in TH. discriminate TH.
Qed.

Definition all_blocked w : Prop := forall t, step w t = None.
Lemma blocked_client w t r prog pc : all_blocked w -> get_thread (w_threads w) t = Some (TClient r prog pc) ->
  step_client w t r prog pc = None.
Proof. intros AB G. specialize (AB t). unfold World.step in AB. now rewrite G in AB. Qed.
Lemma blocked_reducer w pc : all_blocked w -> get_thread (w_threads w) reducer_tid = Some (TReducer pc) ->
  step_reducer cfg w pc = None.
Proof. intros AB G. specialize (AB reducer_tid). unfold World.step in AB. now rewrite G, N.eqb_refl in AB. Qed.

(* the pcs at which a thread waits for a channeled subscriber or an iterator: for its context lock,
   its thread, room in its channel, an item from it. Every other wait in the table of WorldBlock.v is
   for TX, SUBS, room in the dispatch queue, an action or the pool. *)
Definition sub_edge (th : thread) : bool :=
  match th with
  | TClient _ _ (PUnsubCtx _ | PUnsubJoin _ | PUnsubIterSend _ _ | PNextRecv _) => true
  | TReducer (RNotifySend _ _ _ _ _ _ | RClearJoin _ _ | RClearIterSend _ _ _) => true
  | _ => false
  end.

(* used by `idle_not_full` (through `lia`), hence a premise of what rests on it *)
Hypothesis cap_pos : 0 < cfg_cap cfg.

Section Reachable.
Variables (reducers mws : list N) (progs : list (list call)).
Hypothesis L : (length progs <= 100)%nat.
Notation reachable := (reachable cfg reducers mws progs).

Theorem reachable_tid_kinds w : reachable w -> inv_tid_kinds w.
Proof.
  apply reachable_ind; [|intros w0 t w1 R; apply step_tid_kinds; now apply (reachable_fresh cfg reducers mws progs)].
  intros t th G. apply init_threads in G. destruct G as [(p & _ & -> & LT)|[-> ->]]; [left; clear - L LT; lia|reflexivity].
Qed.

Theorem reachable_closer w : reachable w -> inv_closer w.
Proof.
  apply reachable_ind; [intros O; discriminate O|]. intros w0 t w1 R.
  apply step_closer; [now apply (reachable_fresh cfg reducers mws progs)|now apply reachable_tid_kinds].
Qed.

Theorem reachable_past_close w : reachable w -> inv_past_close w.
Proof.
  apply reachable_ind; [|intros w0 t w1 R; apply step_past_close; now apply reachable_closer].
  intros _. apply init_threads_all; auto.
Qed.

Theorem reachable_bodies w : reachable w -> inv_bodies w.
Proof.
  apply (reachable_progs cfg worker_call); [exact (fun _ _ _ => I)|exact (fun _ => I)|].
  apply Forall_forall. intros p _. now apply Forall_forall.
Qed.

(* If no thread can step and none stands at one of the edges of `sub_edge`, the waits unwind: the
   reducer does not wait for SUBS, whose holders stand at such an edge or can step, so it is gone or
   idle; the queue is then empty, so nobody waits in a send on it and TX is free; what is left to
   wait for is the pool join, and that has nobody to wait for either. *)
Section Idle.
Variable w : world.
Variable pc : rpc (State := State).
Hypothesis R : reachable w.
Hypothesis AB : all_blocked w.
Hypothesis NE : threads_all (fun th => sub_edge th = false) (w_threads w).
Hypothesis G : get_thread (w_threads w) reducer_tid = Some (TReducer pc).

Lemma idle_subs_free : subs_free w = true.
Proof.
  apply nobody_holds; [exact (reachable_keys _ _ _ _ L R)|]. intros t th Gt Hs.
  pose proof (NE _ _ Gt) as E. destruct th as [r prog pc'|pc'|]; try discriminate Hs.
  - destruct pc'; discriminate.
  - (* the reducer releasing the subscribers: between two of them it can step *)
    destruct (the_reducer _ _ _ _ (reachable_tid_kinds w R) G Gt) as [-> ->].
    pose proof (reducer_blocked_on cfg _ _ (blocked_reducer _ _ AB G)) as W.
    destruct pc; try discriminate; exact W.
Qed.

Lemma idle_reducer : pc = RDone \/ (pc = RRecv /\ q (w_dq w) = [] /\ tx_alive (w_dq w) = true).
Proof.
  pose proof (reducer_blocked_on cfg _ _ (blocked_reducer _ _ AB G)) as W.
  pose proof (NE _ _ G) as E. pose proof idle_subs_free as S.
  destruct pc; try contradiction; try discriminate E; auto; congruence.
Qed.

Lemma idle_not_full : ~ cap (w_dq w) <= length (q (w_dq w)).
Proof.
  destruct (reachable_bound cfg _ _ _ _ R) as (_ & CAP & _).
  assert (QE : q (w_dq w) = []).
  { destruct idle_reducer as [E|(_ & Q & _)]; [|exact Q]. subst pc.
    now destruct (reducer_past_closed w RDone (reachable_close cfg _ _ _ _ R) G eq_refl) as (_ & _ & Q). }
  rewrite QE, CAP. cbn. lia.
Qed.

(* a holder of TX waits for room in the queue *)
Lemma idle_tx_free : tx_free w = true.
Proof.
  apply nobody_holds; [exact (reachable_keys _ _ _ _ L R)|]. intros t th Gt Hs.
  destruct th as [r prog pc'|pc'|]; try discriminate Hs.
  pose proof (client_blocked_on _ _ _ _ _ (blocked_client _ _ _ _ _ AB Gt)) as W.
  destruct pc'; try discriminate Hs; exact (idle_not_full (proj2 W)).
Qed.

Lemma idle_client t r prog pc' : get_thread (w_threads w) t = Some (TClient r prog pc') ->
  thread_finished (State := State) (TClient r prog pc') = true \/ (pc' = PStopJoin /\ pool_idle w = false).
Proof.
  intros Gt. pose proof (client_blocked_on _ _ _ _ _ (blocked_client _ _ _ _ _ AB Gt)) as W.
  pose proof (NE _ _ Gt) as E. pose proof idle_tx_free as TF. pose proof idle_subs_free as S.
  destruct pc'; try discriminate E; try contradiction; try congruence; auto.
  - (* PIdle *) left. now subst prog.
  - (* PTaskStart: a task that no user code sees start has a body *)
    destruct W as (-> & -> & _). destruct (in_call_task _ _ _ (reachable_in_call cfg _ _ _ _ R _ _ Gt) eq_refl).
  - (* PSending *) destruct (idle_not_full (proj2 W)).
  - (* PCloseSending *) destruct (idle_not_full (proj2 W)).
Qed.

(* the pool join waits for a pool thread: not for an effect task, which is finished or would itself
   be in the join; not for the reducer, which is gone - at recv the queue would still be connected,
   and nobody is past close() then *)
Lemma idle_clients_done t r prog pc' : get_thread (w_threads w) t = Some (TClient r prog pc') ->
  thread_finished (State := State) (TClient r prog pc') = true.
Proof.
  intros Gt. destruct (idle_client _ _ _ _ Gt) as [F|[-> PI]]; [exact F|exfalso].
  unfold pool_idle in PI. apply (forallb_false_holder (fun th => negb (is_pool_thread th) || thread_finished th)) in PI;
    [|exact (reachable_keys _ _ _ _ L R)].
  destruct PI as (t2 & th2 & G2 & F2). apply orb_false_iff in F2. destruct F2 as [P2 U2].
  destruct th2 as [r2 prog2 pc2|pc2|]; cbn in P2; try discriminate.
  - destruct r2 as [|k2]; [discriminate|].
    destruct (idle_client _ _ _ _ G2) as [F|[-> _]]; [congruence|].
    exact (worker_not_joining _ _ (reachable_in_call cfg _ _ _ _ R _ _ G2) (reachable_bodies w R _ _ G2)).
  - destruct (the_reducer _ _ _ _ (reachable_tid_kinds w R) G G2) as [-> ->].
    destruct idle_reducer as [E|(E & _ & A)]; subst pc; [discriminate U2|].
    pose proof (reachable_past_close w R A _ _ Gt) as X. discriminate X.
Qed.
End Idle.

(* C13, for any program: no deadlock but at the edges of `sub_edge`. The reducer idling in recv on an
   open, empty queue is a store nobody closed. *)
Theorem blocked_is_quiescent w : reachable w -> all_blocked w ->
  threads_all (fun th => sub_edge th = false) (w_threads w) ->
  forall t th, get_thread (w_threads w) t = Some th ->
    thread_finished th = true \/
    (t = reducer_tid /\ th = TReducer RRecv /\ q (w_dq w) = [] /\ tx_alive (w_dq w) = true) \/
    exists sid, th = TChan sid false.
Proof.
  intros R AB NE t th Gt. destruct (reachable_tids cfg _ _ _ _ L R) as [[pc G] _].
  destruct th as [r prog pc'|pc'|sid [|]]; [left|..].
  - exact (idle_clients_done w pc R AB NE G _ _ _ _ Gt).
  - destruct (the_reducer _ _ _ _ (reachable_tid_kinds w R) G Gt) as [-> ->].
    destruct (idle_reducer w pc R AB NE G) as [->|(-> & Q & A)]; [left; reflexivity|right; left; auto].
  - left; reflexivity.
  - right; right. now exists sid.
Qed.
End Reachable.

Definition quiescent w : Prop :=
  forall t th, get_thread (w_threads w) t = Some th ->
    thread_finished th = true \/
    (t = reducer_tid /\ th = TReducer RRecv /\ q (w_dq w) = [] /\ tx_alive (w_dq w) = true).

Lemma frag_no_edge th : k_pc simple_kind th -> Forall (of_kind simple_kind) (th_subs th) ->
  sub_edge th = false /\ forall sid f, th <> TChan sid f.
Proof.
  destruct th as [? ? []|[]|]; cbn; intros K X; try discriminate; try (now split); apply Forall_inv in X; try discriminate X.
  unfold of_kind in X. destruct K as [K|K]; rewrite K in X; discriminate X.
Qed.

Theorem reachable_frag reducers mws progs w : Forall (Forall frag_call) progs ->
  reachable cfg reducers mws progs w -> inv_frag w.
Proof. intros FP. apply reachable_kinds. revert FP. apply Forall_impl. apply Forall_impl, frag_k_call. Qed.

(* C13, core fragment: whatever the schedule, when no thread can take a step every call has returned
   (every client program and every effect task has run to its end) and the reducer has left its loop
   or idles on an open, empty queue. *)
Theorem core_deadlock_free reducers mws progs w : (length progs <= 100)%nat ->
  Forall (Forall frag_call) progs -> reachable cfg reducers mws progs w ->
  all_blocked w -> quiescent w.
Proof.
  intros L FP R AB t th Gt. destruct (reachable_frag reducers mws progs w FP R) as (_ & FT & _ & FS).
  assert (NE : threads_all (fun th => sub_edge th = false) (w_threads w)).
  { intros t0 th0 G0. exact (proj1 (frag_no_edge _ (FT _ _ G0) (FS _ _ G0))). }
  destruct (blocked_is_quiescent reducers mws progs L w R AB NE t th Gt) as [F|[I|(sid & ->)]]; [now left|now right|].
  destruct (proj2 (frag_no_edge _ (FT _ _ Gt) (FS _ _ Gt)) sid false eq_refl).
Qed.
End WorldLive.
