(* WorldFoldDyn.v — the state is the sequential fold of the per-action pipeline also when reducers
   and middlewares are registered at run time (C01, C07): for every program and schedule, every
   write-back (a, s) is the pipeline of a applied to the previously written state, run with a
   middleware list MS and a reducer list RS1 that lie between the registry as it was when the
   reducer took a and the registry as it is at the write-back - registries only grow at the end, so
   "between" means: everything registered before the action was taken is in, in registration
   order, and nothing is in that was never registered. *)
From RS Require Import Base PipelineProofs Script World WorldTactics WorldStep Hist WorldProofs WorldInv WorldQueue.

Section WorldFoldDyn.
Context {State : Type}.
Variable cfg : wconfig (State := State).
Variables RS0 MS0 : list N.      (* the registries at build time *)
Notation step := (step cfg).
Notation event := (event (State := State)).
Implicit Types w : World.world (State := State).
Implicit Types h : list event.

Definition addm_call (c : call) : list N := match c with CAddMiddleware id => [id] | _ => [] end.
Definition addr_call (c : call) : list N := match c with CAddReducer id => [id] | _ => [] end.
Definition ev_addm (e : event) : list N := match e with ERet _ c _ => addm_call c | _ => [] end.
Definition ev_addr (e : event) : list N := match e with ERet _ c _ => addr_call c | _ => [] end.
Definition added_m h : list N := flat_map ev_addm h.    (* newest first *)
Definition added_r h : list N := flat_map ev_addr h.
Definition mws_all h : list N := MS0 ++ rev (added_m h).
Definition reds_all h : list N := RS0 ++ rev (added_r h).
(* the part of the history older than the newest take *)
Fixpoint after_deq h : list event :=
  match h with
  | [] => []
  | EDeq _ :: r => r
  | _ :: r => after_deq r
  end.
Definition mws_at_deq h := mws_all (after_deq h).
Definition reds_at_deq h := reds_all (after_deq h).

Definition prefix {A} (l1 l2 : list A) : Prop := exists l3, l2 = l1 ++ l3.
Definition between {A} (lo x hi : list A) : Prop := prefix lo x /\ prefix x hi.

Definition step_with (MS RS1 : list N) (s : State) (a : aid) : State :=
  post_state (map (cfg_mw cfg) MS) (map (cfg_reducer cfg) RS1) s a.

Definition write_ok (r : list event) (a : aid) (s : State) : Prop :=
  exists MS RS1, between (mws_at_deq r) MS (mws_all r) /\ between (reds_at_deq r) RS1 (reds_all r) /\
                 s = step_with MS RS1 (last_written (cfg_init cfg) r) a.

Fixpoint chain_dyn h : Prop :=
  match h with
  | [] => True
  | e :: r => match e with EWrite a s => write_ok r a s | _ => True end /\ chain_dyn r
  end.

Definition pc_dyn h (cur : State) (pc : rpc (State := State)) : Prop :=
  match pc with
  | RReduce a go =>
      exists MS, between (mws_at_deq h) MS (mws_all h) /\ go = negb (vetoed (map (cfg_mw cfg) MS) a cur)
  | RWrite a s _ nd =>
      exists MS RS1, between (mws_at_deq h) MS (mws_all h) /\ between (reds_at_deq h) RS1 (reds_all h) /\
                     s = step_with MS RS1 cur a /\
                     nd = need_dispatch (map (cfg_mw cfg) MS) (map (cfg_reducer cfg) RS1) cur a
  | _ => True
  end.
Definition taking (pc : rpc (State := State)) : list aid :=
  match pc with RBeforeReduce a | RReduce a _ | RWrite a _ _ _ => [a] | _ => [] end.

Definition regs_ok w : Prop := w_mws w = mws_all (w_hist w) /\ w_reducers w = reds_all (w_hist w).

Definition pc_ok h (cur : State) (pc : rpc (State := State)) : Prop :=
  deqs h = taking pc ++ map fst (writes h) /\ pc_dyn h cur pc.

Definition inv_dyn w : Prop :=
  chain_dyn (w_hist w) /\
  forall pc, get_thread (w_threads w) reducer_tid = Some (TReducer pc) -> pc_ok (w_hist w) (w_state w) pc.

Lemma prefix_refl {A} (l : list A) : prefix l l.
Proof. exists []. now rewrite app_nil_r. Qed.
Lemma prefix_app {A} (l1 l2 x : list A) : prefix l1 l2 -> prefix l1 (l2 ++ x).
Proof. intros [l3 ->]. exists (l3 ++ x). now rewrite app_assoc. Qed.
Lemma between_app {A} (lo x hi y : list A) : between lo x hi -> between lo x (hi ++ y).
Proof. intros [P1 P2]. split; [exact P1|now apply prefix_app]. Qed.
Lemma between_top {A} (lo hi : list A) : prefix lo hi -> between lo hi hi.
Proof. intros P. split; [exact P|apply prefix_refl]. Qed.
Lemma between_static {A} (l a b x : list A) : b = [] -> between (l ++ rev a) x (l ++ rev b) -> x = l.
Proof.
  intros -> [[c ->] [d E]]. cbn in E. rewrite <- !app_assoc in E. apply app_inv_head in E. symmetry in E.
  apply app_eq_nil in E as [-> E]. apply app_eq_nil in E as [-> _]. now rewrite !app_nil_r.
Qed.

Lemma added_m_app h1 h2 : added_m (h1 ++ h2) = added_m h1 ++ added_m h2.
Proof. apply flat_map_app. Qed.
Lemma added_r_app h1 h2 : added_r (h1 ++ h2) = added_r h1 ++ added_r h2.
Proof. apply flat_map_app. Qed.
Lemma mws_all_app l h : mws_all (l ++ h) = mws_all h ++ rev (added_m l).
Proof. unfold mws_all. now rewrite added_m_app, rev_app_distr, app_assoc. Qed.
Lemma reds_all_app l h : reds_all (l ++ h) = reds_all h ++ rev (added_r l).
Proof. unfold reds_all. now rewrite added_r_app, rev_app_distr, app_assoc. Qed.

Lemma after_deq_suffix h : exists l0, h = l0 ++ after_deq h.
Proof.
  induction h as [|e r [l0 IH]]; [now exists []|].
  assert (G : exists l1, e :: r = l1 ++ after_deq r) by (exists (e :: l0); cbn; now rewrite <- IH).
  destruct e; try exact G. now exists [EDeq i].
Qed.
Lemma at_deq_prefix_m h : prefix (mws_at_deq h) (mws_all h).
Proof. destruct (after_deq_suffix h) as [l0 E]. rewrite E at 2. rewrite mws_all_app. eexists; reflexivity. Qed.
Lemma at_deq_prefix_r h : prefix (reds_at_deq h) (reds_all h).
Proof. destruct (after_deq_suffix h) as [l0 E]. rewrite E at 2. rewrite reds_all_app. eexists; reflexivity. Qed.

Definition regquiet (e : event) : Prop :=
  match e with ERet _ c _ => addm_call c = [] /\ addr_call c = [] | _ => True end.

Lemma regs_frame w w' evs : w_hist w' = rev evs ++ w_hist w -> Forall regquiet evs ->
  w_mws w' = w_mws w -> w_reducers w' = w_reducers w -> regs_ok w -> regs_ok w'.
Proof.
  intros E Q EM ER [M R]. unfold regs_ok, mws_all, reds_all, added_m, added_r.
  rewrite E, EM, ER, !flat_map_quiet; [auto| |]; (eapply Forall_impl; [|exact Q]);
    intros [] A; try reflexivity; apply A.
Qed.

(* add_reducer and add_middleware are atomic: they return from PCall and from nowhere else *)
Lemma ret_regquiet t r prog pc res : in_call (State := State) (TClient r prog pc) -> busy pc -> pc <> PCall ->
  Forall regquiet (ret_events t prog res).
Proof.
  intros [->|[(k & v & -> & _)|(c & rest & done & -> & W)]] B N; try contradiction. constructor; [|constructor].
  (* they are entered at PCall, and only PCall is within PCall *)
  destruct c; try (now split); destruct pc; cbn in W; congruence || (destruct W; congruence).
Qed.
Lemma pure_regquiet t prog res : pure_prog prog -> Forall regquiet (ret_events t prog res).
Proof. destruct prog as [|[] ?]; try contradiction; repeat constructor. Qed.
Lemma task_regquiet t prog c rest k body res : prog = c :: rest -> task_of c = Some (k, body) ->
  Forall regquiet (ret_events t prog res).
Proof. intros ->. destruct c; try discriminate; repeat constructor. Qed.

Theorem step_regs w t w' : threads_all in_call (w_threads w) -> regs_ok w -> step w t = Some w' -> regs_ok w'.
Proof.
  intros T IV H. step_rules H Hh; try open_at AT.
  (* a return from inside a call of several steps registers nothing *)
  all: try (assert (RQ : forall res, Forall regquiet (ret_events t prog res))
              by (intro; eapply ret_regquiet; [exact (T _ _ TH)|exact I|discriminate])).
  all: try (eapply regs_frame;
            [exact Hh|eauto 7 using pure_regquiet, task_regquiet with evs|reflexivity|reflexivity|exact IV]; fail).
  (* CS_add_reducer, CS_add_middleware: the registry and the history grow by the same id *)
  all: subst prog; destruct IV as [M R]; unfold regs_ok; simp_step.
  all: rewrite mws_all_app, reds_all_app, M, R; cbn; now rewrite app_nil_r.
Qed.

Definition dquiet (e : event) : Prop := match e with EDeq _ | EWrite _ _ => False | _ => True end.

Lemma dquiet_hist l h : Forall dquiet l ->
  after_deq (l ++ h) = after_deq h /\ deqs (l ++ h) = deqs h /\ writes (l ++ h) = writes h /\
  (chain_dyn h -> chain_dyn (l ++ h)).
Proof. induction 1 as [|e r E _ (IA & ID & IW & IC)]; [auto|]. destruct e; try contradiction; cbn; auto 6. Qed.

(* the upper bounds only grow (`between_app`) *)
Lemma pc_ok_ext l h cur pc : Forall dquiet l -> pc_ok h cur pc -> pc_ok (l ++ h) cur pc.
Proof.
  intros Q [T C]. destruct (dquiet_hist l h Q) as (A & D & W & _). split; [now rewrite D, W|]. revert C.
  destruct pc; cbn [pc_dyn]; auto; unfold mws_at_deq, reds_at_deq; rewrite A, mws_all_app, ?reds_all_app.
  - intros (MS & B & GO). exists MS. auto using between_app.
  - intros (MS & RS1 & B1 & B2 & S). exists MS, RS1. auto using between_app.
Qed.

(* `pc_ok` of the new pc is asked over the old history and state: `pc_ok_ext` carries it over *)
Lemma dyn_frame w w' evs : w_hist w' = rev evs ++ w_hist w -> Forall dquiet evs -> w_state w' = w_state w ->
  (forall pc, get_thread (w_threads w') reducer_tid = Some (TReducer pc) -> pc_ok (w_hist w) (w_state w) pc) ->
  inv_dyn w -> inv_dyn w'.
Proof.
  intros E Q ES PC (CH & _). apply Forall_rev in Q. unfold inv_dyn. rewrite E, ES.
  split; [now apply (dquiet_hist _ _ Q)|]. intros pc G. apply pc_ok_ext; auto.
Qed.

Theorem step_dyn w t w' : w_state w = last_written (cfg_init cfg) (w_hist w) -> regs_ok w -> inv_dyn w ->
  step w t = Some w' -> inv_dyn w'.
Proof.
  intros ST [M R] IV H. pose proof IV as (CH & PC).
  pose proof (fun t' pc' => step_keeps_reducer cfg w t w' t' pc' H) as RK. step_rules H Hh.
  (* the other threads leave the reducer where it is *)
  all: try (eapply dyn_frame; [exact Hh|auto with evs|reflexivity| |exact IV];
            intros pc' G'; apply PC, RK; [congruence|exact G']; fail).
  all: try open_at AT.
  (* the steps of the reducer other than take and write-back: what is left is `pc_ok` of its new pc *)
  all: clear RK; destruct (PC _ TH) as [T C];
    try (eapply dyn_frame; [exact Hh|solve [auto with evs]|reflexivity| |exact IV];
         intros pc' G'; simp_step; rewrite get_put_same in G'; injection G' as <-).
  (* mostly the new pc, as the old one, is between two actions, where `pc_dyn` is True *)
  all: try (autounfold with next_pc; repeat break_goal_match; exact (conj T I)).
  - (* RS_take *)
    unfold inv_dyn. simp_step. split; [split; [exact I|exact CH]|].
    intros pc' G'. rewrite get_put_same in G'. injection G' as <-.
    split; [|now destruct x]. destruct x; [exact (f_equal (cons _) T)|exact T].
  - (* RS_before_reduce: the hooks of the middlewares registered now decide *)
    split; [exact T|]. exists (w_mws w). split; [rewrite M; apply between_top, at_deq_prefix_m|].
    now subst vs.
  - (* RS_reduce: the reducers registered now run *)
    destruct C as (MS & B & GO). split; [exact T|]. exists MS, (w_reducers w). split; [exact B|].
    split; [rewrite R; apply between_top, at_deq_prefix_r|].
    subst calls. apply post_run. now destruct (vetoed _ a (w_state w)).
  - (* RS_vetoed *)
    destruct C as (MS & B & GO). split; [exact T|]. exists MS, (w_reducers w). split; [exact B|].
    split; [rewrite R; apply between_top, at_deq_prefix_r|].
    apply post_vetoed. now destruct (vetoed _ a (w_state w)).
  - (* RS_write: `pc_dyn` at RWrite is `write_ok` of the new write-back *)
    unfold inv_dyn. simp_step. split.
    + split; [|exact CH]. destruct C as (MS & RS1 & B1 & B2 & S & _). unfold write_ok. rewrite <- ST. eauto.
    + intros pc' G'. rewrite get_put_same in G'. injection G' as <-. now split.
Qed.

Theorem reachable_regs progs w : reachable cfg RS0 MS0 progs w -> regs_ok w.
Proof.
  apply reachable_ind; [|intros w0 t w1 Re; apply step_regs; eapply reachable_in_call; eauto].
  split; symmetry; apply app_nil_r.
Qed.

Theorem reachable_dyn progs w : reachable cfg RS0 MS0 progs w -> inv_dyn w.
Proof.
  apply reachable_ind; [|intros w0 t w1 Re; apply step_dyn; [eapply reachable_state|eapply reachable_regs]; eauto].
  split; [exact I|]. intros pc G. now apply init_reducer_pc in G as ->.
Qed.

(* C01 *)
Theorem writes_are_pipeline_steps progs w : reachable cfg RS0 MS0 progs w ->
  chain_dyn (w_hist w) /\ w_state w = last_written (cfg_init cfg) (w_hist w) /\
  w_mws w = mws_all (w_hist w) /\ w_reducers w = reds_all (w_hist w).
Proof.
  intros R. destruct (reachable_dyn progs w R) as (CH & _). destruct (reachable_regs progs w R).
  destruct (reachable_state cfg _ _ _ _ R). auto.
Qed.

(* C01, C07: `chain_dyn` at one write-back *)
Theorem write_back_is_pipeline_step progs w h2 a s h1 : reachable cfg RS0 MS0 progs w ->
  w_hist w = h2 ++ EWrite a s :: h1 -> write_ok h1 a s.
Proof.
  intros R E. destruct (reachable_dyn progs w R) as (CH & _). rewrite E in CH. clear E.
  induction h2 as [|e r IH]; cbn [app chain_dyn] in CH; [exact (proj1 CH)|exact (IH (proj2 CH))].
Qed.

End WorldFoldDyn.
