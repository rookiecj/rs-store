(* Witness.v — concrete reachable worlds, by evaluation (vm_compute) of the instantiated model:
   non-vacuity examples and the witnesses of the known findings F3, F4, F5 (the model reproduces
   what the real crate does; the same scenarios + schedules are replayed on the real code by the
   checks, corpus/*_known_*.txt). *)
From RS Require Import Base Channel Pipeline Script World Instance Hist WorldSubs WorldSids WorldForward WorldRegistered WorldFoldDyn.

Definition sc0 : scripts := mkScripts [mkRscript 0%N true []] [] [].
Definition cfg0 := script_config sc0 16 Block.

Definition run0 (w : world (State := sstate)) (sched : list N) := run cfg0 w sched.

Definition hist_has (p : event (State := sstate) -> bool) (w : option (world (State := sstate))) : bool :=
  match w with Some w => existsb p (w_hist w) | None => false end.

(* F5: an iterator released before it returned None hangs: thread 0 is parked inside the
   blocking Exit send on the full capacity-1 channel, holding SUBS; no thread can ever step *)
Definition w_f5 := scenario_world sc0 16 Block [0%N] [] []
  [[CIter 1%N 1 Block; CDispatch EStoreImpl 1%N; CDropIter 1%N]].
Definition sched_f5 : list N := [0;0;0;0;0;0;100;100;100;100;100;100;100;100;100;0]%N.

Theorem C13_iter_drop_refuted :
  exists w, run0 w_f5 sched_f5 = Some w /\
    (forall t, In t (map fst (w_threads w)) -> step cfg0 w t = None) /\
    get_thread (w_threads w) 0%N =
      Some (TClient Client [CDropIter 1%N] (PUnsubIterSend 1%N SBlockWait)).
Proof.
  destruct (run0 w_f5 sched_f5) as [w|] eqn:E; [|vm_compute in E; discriminate].
  exists w. split; [reflexivity|].
  assert (A : forallb (fun t => match step cfg0 w t with None => true | Some _ => false end)
                      (map fst (w_threads w)) = true /\
              get_thread (w_threads w) 0%N =
                Some (TClient Client [CDropIter 1%N] (PUnsubIterSend 1%N SBlockWait))).
  { vm_compute in E. injection E as <-. vm_compute. split; reflexivity. }
  destruct A as [A B]. split; [|exact B].
  intros t Ht. rewrite forallb_forall in A. specialize (A t Ht).
  destruct (step cfg0 w t); [discriminate|reflexivity].
Qed.

(* F3: a direct subscriber is notified after its unsubscribe() has returned *)
Definition w_f3 := scenario_world sc0 16 Block [0%N] [] [ISDirect 1%N; ISDirect 2%N]
  [[CDispatch EStoreImpl 1%N]; [CUnsubscribe 2%N]].
Definition sched_f3 : list N := [0;0;0;100;100;100;100;100;100;100;1;1;100;100]%N.

(* newest first: the notification of subscriber 2 is newer than the return of its unsubscribe *)
Fixpoint notify_after_ret (h : list (event (State := sstate))) (seen_notify : bool) : bool :=
  match h with
  | [] => false
  | ECb XReducer (CbNotify 2%N _ _) :: r => notify_after_ret r true
  | ERet _ (CUnsubscribe 2%N) _ :: r => seen_notify || notify_after_ret r seen_notify
  | _ :: r => notify_after_ret r seen_notify
  end.

Theorem C09_late_notify_refuted :
  exists w, run0 w_f3 sched_f3 = Some w /\ notify_after_ret (w_hist w) false = true.
Proof.
  destruct (run0 w_f3 sched_f3) as [w|] eqn:E; [|vm_compute in E; discriminate].
  exists w. split; [reflexivity|]. vm_compute in E. injection E as <-. reflexivity.
Qed.

(* F4: the effect of an action accepted before stop() is skipped: its effect phase runs after
   stop() took the pool *)
Definition sc4 : scripts :=
  mkScripts [mkRscript 0%N true [(1%N, (true, Some (mkEff 1000%N KTask [])))]] [] [].
Definition cfg4 := script_config sc4 16 Block.
Definition w_f4 := scenario_world sc4 16 Block [0%N] [] []
  [[CDispatch EStoreImpl 1%N; CStop]].
Definition sched_f4 : list N := [0;0;0;0;0;0;0;100;100;100;100;100;100;100;100;100;100;0]%N.

Definition is_skipped (e : event (State := sstate)) : bool :=
  match e with ESpawnSkipped 1000%N => true | _ => false end.
Definition is_run (e : event (State := sstate)) : bool :=
  match e with ECb _ (CbEffectRun 1000%N) => true | _ => false end.

Theorem C11_backlog_refuted :
  exists w, run cfg4 w_f4 sched_f4 = Some w /\
    existsb is_skipped (w_hist w) = true /\ existsb is_run (w_hist w) = false /\
    forallb (fun p => thread_finished (snd p)) (w_threads w) = true.
Proof.
  destruct (run cfg4 w_f4 sched_f4) as [w|] eqn:E; [|vm_compute in E; discriminate].
  exists w. split; [reflexivity|]. vm_compute in E. injection E as <-. vm_compute. repeat split.
Qed.

(* non-vacuity: a reachable stopped world with a processed backlog *)
Definition w_nv := scenario_world sc0 2 Block [0%N] [] [ISDirect 1%N]
  [[CDispatch EStoreImpl 1%N; CDispatch EDispatcher 2%N; CStop; CDispatch EStoreImpl 3%N; CGetState]].

Fixpoint drive (fuel : nat) (w : world (State := sstate)) : world :=
  match fuel with
  | O => w
  | S f =>
      match find (fun t => match step cfg0 w t with Some _ => true | None => false end) (map fst (w_threads w)) with
      | Some t => match step cfg0 w t with Some w' => drive f w' | None => w end
      | None => w
      end
  end.

Example stopped_world_exists :
  let w := drive 200 w_nv in
  w_state w = [(0, 1); (0, 2)]%N /\ pool_idle w = true /\ w_pool w = false /\ w_tx_open w = false /\
  forallb (fun p => thread_finished (snd p)) (w_threads w) = true.
Proof. vm_compute. repeat split. Qed.

(* non-vacuity of C14_every_notification / C10_same_stream: an iterator created at run time,
   three notifying actions, one next(): the snapshots owe it [1;2;3]; it has yielded [1], [2] is
   queued in its capacity-1 channel and the reducer is parked in the blocking send of 3 *)
Definition w_it := scenario_world sc0 16 Block [0%N] [] []
  [[CIter 1%N 1 Block; CDispatch EStoreImpl 1%N; CDispatch EStoreImpl 2%N; CDispatch EStoreImpl 3%N; CNext 1%N]].

Example iterator_stream_exists :
  let w := drive 400 w_it in
  exists c pc, get_chan (w_chans w) 1%N = Some c /\ pol c = Block /\ tx_alive c = true /\
    get_thread (w_threads w) reducer_tid = Some (TReducer pc) /\
    rev (fowed 1%N (w_hist w)) = [1; 2; 3]%N /\ rev (subrecvs 1%N (w_hist w)) = [1%N] /\
    qacts c = [2%N] /\ pendingf 1%N pc = [3%N].
Proof. vm_compute. eexists _, _. repeat split. Qed.

Example iterator_program_distinct :
  distinct_regs [[CIter 1%N 1 Block; CDispatch EStoreImpl 1%N; CDispatch EStoreImpl 2%N; CDispatch EStoreImpl 3%N; CNext 1%N]].
Proof. unfold distinct_regs. cbn. constructor; [intros []|constructor]. Qed.

(* non-vacuity of C03_whole_run_subscriber_in_every_snapshot / C09_notified_while_registered:
   a subscriber added at run time before two dispatches is live at both snapshots *)
Definition w_reg := scenario_world sc0 16 Block [0%N] [] []
  [[CAddSubscriber 7%N; CDispatch EStoreImpl 1%N; CDispatch EStoreImpl 2%N]].
Fixpoint live_at_snapshots (sid : N) (h : list (event (State := sstate))) : list bool :=
  match h with
  | [] => []
  | ESnapshot _ _ _ :: r => reg_live sid r :: live_at_snapshots sid r
  | _ :: r => live_at_snapshots sid r
  end.
Example registered_subscriber_exists :
  live_at_snapshots 7%N (w_hist (drive 400 w_reg)) = [true; true].
Proof. vm_compute. reflexivity. Qed.

(* non-vacuity of C01_fold_runtime_registration / C07_registered_never_left_out: a reducer
   added at run time after the first action was completely processed takes part in the second
   action only *)
Definition w_dyn := scenario_world sc0 16 Block [0%N] [] []
  [[CDispatch EStoreImpl 1%N; CAddReducer 5%N; CDispatch EStoreImpl 2%N]].
Definition sched_dyn : list N := [0;0;0;100;100;100;100;100;100;100]%N.
Example runtime_registration_exists :
  match run0 w_dyn sched_dyn with
  | Some w1 =>
      let w := drive 400 w1 in
      w_state w = [(0, 1); (0, 2); (5, 2)]%N /\ w_reducers w = [0; 5]%N /\
      reds_all [0%N] (w_hist w) = [0; 5]%N /\ length (writes (w_hist w)) = 2
  | None => False
  end.
Proof. vm_compute. repeat split. Qed.

(* non-vacuity of C04_forwarding_is_final / C14_remaining_pairs_after_stop: an iterator
   drained to the end by its own thread while another thread stops the store: the reducer is done,
   everything forwarded - [1; 2] - was yielded, nothing is queued, None was returned *)
Definition w_end := scenario_world sc0 16 Block [0%N] [] []
  [[CIter 1%N 1 Block; CDispatch EStoreImpl 1%N; CDispatch EStoreImpl 2%N; CDrain 1%N]; [CStop]].
Example drained_iterator_after_stop :
  let w := drive 800 w_end in
  get_thread (w_threads w) reducer_tid = Some (TReducer RDone) /\
  (exists c, get_chan (w_chans w) 1%N = Some c /\ pol c = Block /\ qacts c = []) /\
  rev (subsends 1%N (w_hist w)) = [1; 2]%N /\ rev (subrecvs 1%N (w_hist w)) = [1; 2]%N /\
  memN 1%N (w_iter_done w) = true /\
  forallb (fun p => thread_finished (snd p)) (w_threads w) = true.
Proof. vm_compute. repeat split. eexists. repeat split. Qed.
