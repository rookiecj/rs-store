(* WorldSids.v — subscription identifiers (C09). For every program and each identifier, three
   quantities never exceed its occurrences in the registration calls of the programs given (`held`,
   `held_given`): registrations still to invoke + invoked, not yet in the registry + in it, not yet
   returned + returned. In programs whose registration calls carry pairwise distinct identifiers
   (the real API hands out a fresh Subscription per call) each is at most 1: `inv_u`, the registry
   holds no identifier twice, no registration returns twice. Every subscriber entry in use keeps what
   held of it when its call was invoked (`subs_in`, `Step_subs_in`); so every identifier in use was
   invoked (`inv_v`), and with `inv_u` a pending registration's identifier is not in use.
   In use (`th_subs`, `used`): in the registry, naming a channel, or held by a thread that is
   registering one, unsubscribing one past the registry lock, notifying or releasing the rest of a
   snapshot, or serving a channel. Not covered: the identifier of an unsubscribe or iterator call
   that has not yet taken the registry lock (`PUnsubLock`, `PNextRecv`), `w_lasts`, `w_iter_done`. *)
From RS Require Import Base World WorldTactics WorldStep Hist WorldProofs WorldQueue.

Section WorldSids.
Context {State : Type}.
Variable cfg : wconfig (State := State).
Notation step := (step cfg).
Notation event := (event (State := State)).
Notation thread := (thread (State := State)).
Implicit Types w : World.world (State := State).
Implicit Types h : list event.

Definition reg_sid (c : call) : list N :=
  match c with
  | CAddSubscriber s | CSubscribeSelector s _ | CSubscribed s _ _ | CIter s _ _ => [s]
  | _ => []
  end.
Definition prog_regs (prog : list call) : list N := flat_map reg_sid prog.
Definition distinct_regs (progs : list (list call)) : Prop := NoDup (flat_map prog_regs progs).
Definition ids (l : list subentry) : list N := map se_id l.

Lemma body_no_regs prog : body_prog prog -> prog_regs prog = [].
Proof. intros B. apply flat_map_nil, B; reflexivity. Qed.
Lemma ids_app l x : ids (l ++ [x]) = ids l ++ [se_id x].
Proof. unfold ids. now rewrite map_app. Qed.

Definition cnt (sid : N) (l : list N) : nat := count_occ N.eq_dec l sid.
Lemma cnt_app sid l1 l2 : cnt sid (l1 ++ l2) = cnt sid l1 + cnt sid l2.
Proof. apply count_occ_app. Qed.
Lemma cnt_cons sid x l : cnt sid (x :: l) = (if N.eq_dec x sid then 1 else 0) + cnt sid l.
Proof. cbn. destruct (N.eq_dec x sid); reflexivity. Qed.
Lemma cnt_nil sid : cnt sid [] = 0.
Proof. reflexivity. Qed.
Lemma cnt_in sid l : In sid l -> 1 <= cnt sid l.
Proof. apply count_occ_In. Qed.
Lemma NoDup_cnt l : NoDup l -> forall sid, cnt sid l <= 1.
Proof. apply NoDup_count_occ. Qed.
Lemma given_once progs sid n : distinct_regs progs -> n <= cnt sid (flat_map prog_regs progs) -> n <= 1.
Proof. intros D L. pose proof (NoDup_cnt _ D sid). lia. Qed.

Definition all_of (f : thread -> list N) (ths : list (N * thread)) : list N := flat_map (fun p => f (snd p)) ths.

Lemma of_put_same f ths t th0 th' sid : get_thread ths t = Some th0 ->
  cnt sid (all_of f (put_thread ths t th')) + cnt sid (f th0) = cnt sid (all_of f ths) + cnt sid (f th').
Proof.
  induction ths as [|[t1 th1] r IH]; cbn [get_thread put_thread]; [discriminate|].
  destruct (N.eqb t t1).
  - intros E; injection E as ->. unfold all_of. cbn [flat_map snd]. rewrite !cnt_app. lia.
  - intros G. specialize (IH G). unfold all_of in *. cbn [flat_map snd]. rewrite !cnt_app. lia.
Qed.
Lemma of_put_le f ths t th' sid :
  cnt sid (all_of f (put_thread ths t th')) <= cnt sid (all_of f ths) + cnt sid (f th').
Proof.
  induction ths as [|[t1 th1] r IH]; cbn [put_thread].
  - unfold all_of. cbn [flat_map snd]. rewrite !cnt_app. lia.
  - destruct (N.eqb t t1); unfold all_of in *; cbn [flat_map snd]; rewrite !cnt_app; lia.
Qed.
(* a step may also start a thread W; its tid n is not known to be new, hence <= *)
Lemma of_put2 f ths n W t th0 th' sid : get_thread ths t = Some th0 -> f W = [] ->
  cnt sid (all_of f (put_thread (put_thread ths n W) t th')) + cnt sid (f th0) <=
  cnt sid (all_of f ths) + cnt sid (f th').
Proof.
  intros G PW. destruct (N.eq_dec n t) as [->|NE].
  - rewrite put_put_same. pose proof (of_put_same f ths t th0 th' sid G). lia.
  - pose proof (of_put_same f (put_thread ths n W) t th0 th' sid) as A. rewrite get_put_other in A by auto.
    pose proof (of_put_le f ths n W sid) as B. rewrite PW in B. specialize (A G). cbn in B. lia.
Qed.

(* Per identifier: what the threads hold of f, plus m, a number read off the rest of the world.
   No step increases the three instances below, so each stays within the occurrences of the
   identifier in the programs given: (`pending`, `hist_n ev_reg`) by `step_invoked`, read as `inv_u`;
   (`unregistered`, `registered_n`) by `step_registered`, read as `registry_nodup`; (`unreturned`,
   `hist_n ev_ret`) by `step_returned`, read as `returned_once`. *)
Section Held.
Variable f : thread -> list N.
Variable m : N -> World.world (State := State) -> nat.
Definition held sid w : nat := cnt sid (all_of f (w_threads w)) + m sid w.

Lemma held_put w w' t th th' sid : get_thread (w_threads w) t = Some th ->
  w_threads w' = put_thread (w_threads w) t th' ->
  cnt sid (f th') + m sid w' <= cnt sid (f th) + m sid w -> held sid w' <= held sid w.
Proof. intros G ET P. unfold held. rewrite ET. pose proof (of_put_same f _ _ _ th' sid G). lia. Qed.
Lemma held_put2 w w' n W t th th' sid : get_thread (w_threads w) t = Some th -> f W = [] ->
  w_threads w' = put_thread (put_thread (w_threads w) n W) t th' ->
  cnt sid (f th') + m sid w' <= cnt sid (f th) + m sid w -> held sid w' <= held sid w.
Proof. intros G EW ET P. unfold held. rewrite ET. pose proof (of_put2 f _ n W _ _ th' sid G EW). lia. Qed.

Lemma init_all_of reducers mws progs :
  all_of f (w_threads (init_world cfg reducers mws progs)) =
  flat_map (fun p => f (TClient Client p PIdle)) progs ++ f (TReducer RRecv).
Proof.
  cbn [init_world w_threads]. generalize 0%N. unfold all_of.
  induction progs as [|p r IH]; intros i; cbn [client_threads app flat_map snd]; [apply app_nil_r|].
  now rewrite IH, app_assoc.
Qed.
Lemma held_given reducers mws progs : (forall p, f (TClient Client p PIdle) = prog_regs p) -> f (TReducer RRecv) = [] ->
  (forall sid, m sid (init_world cfg reducers mws progs) = 0) ->
  (forall w t w' sid, step w t = Some w' -> held sid w' <= held sid w) ->
  forall w sid, reachable cfg reducers mws progs w -> held sid w <= cnt sid (flat_map prog_regs progs).
Proof.
  intros C R M ST w sid. revert w. apply reachable_ind.
  - unfold held. rewrite M, init_all_of, R, app_nil_r, Nat.add_0_r. apply Nat.eq_le_incl. f_equal.
    apply flat_map_ext. exact C.
  - intros w t w' _ I H. specialize (ST _ _ _ sid H). lia.
Qed.
End Held.
(* what is left is the inequality between the two entries of the stepping thread and the two
   values of m; a thread the rule starts holds nothing, its program being a body; HS_deliver writes
   no entry *)
Ltac held_rule TH :=
  first [eapply held_put; [exact TH|first [reflexivity|symmetry; apply put_get_same, TH]|]
        |eapply held_put2; [exact TH| |reflexivity|];
         [first [reflexivity|apply body_no_regs; first [apply body_calls|apply body_eff]]|]].

Definition hist_n (ev : event -> list N) sid w : nat := cnt sid (flat_map ev (w_hist w)).
Lemma hist_n_step ev w w' evs sid a b : w_hist w' = rev evs ++ w_hist w ->
  a + cnt sid (flat_map ev evs) <= b -> a + hist_n ev sid w' <= b + hist_n ev sid w.
Proof.
  intros E L. unfold hist_n. rewrite E, flat_map_app, cnt_app.
  (* `cnt` does not see the order *)
  enough (cnt sid (flat_map ev (rev evs)) = cnt sid (flat_map ev evs)) by lia.
  apply Permutation.Permutation_count_occ, Permutation.Permutation_flat_map, Permutation.Permutation_sym, Permutation.Permutation_rev.
Qed.

(* registrations a thread has still to invoke *)
Definition pending (th : thread) : list N :=
  match th with
  | TClient _ prog PIdle | TClient _ prog (PTaskStart _ _) => prog_regs prog
  | TClient _ prog _ => prog_regs (tl prog)
  | _ => []
  end.
(* `all_of pending` *)
Definition all_pending (ths : list (N * thread)) : list N := flat_map (fun p => pending (snd p)) ths.
Definition ev_reg (e : event) : list N := match e with EInv _ c => reg_sid c | _ => [] end.
Definition hist_regs h : list N := flat_map ev_reg h.

Lemma hist_regs_app h1 h2 : hist_regs (h1 ++ h2) = hist_regs h1 ++ hist_regs h2.
Proof. apply flat_map_app. Qed.
Lemma pending_invoking r prog pc : invoking r pc -> pending (TClient r prog pc) = prog_regs prog.
Proof. now intros [->|(k & k' & -> & _)]. Qed.
Lemma pending_invoked r prog done c : pending (TClient r prog (invoke_pc done c)) = prog_regs (tl prog).
Proof. destruct c; cbn; try destruct (memN _ _); reflexivity. Qed.

(* invoking a call moves the identifier it registers from the pending ones to the history *)
Theorem step_invoked w t w' sid : step w t = Some w' -> held pending (hist_n ev_reg) sid w' <= held pending (hist_n ev_reg) sid w.
Proof.
  intros H. step_rules H Hh; try open_at AT; held_rule TH; apply (hist_n_step _ _ _ _ _ _ _ Hh).
  (* most rules invoke nothing and leave the thread in the same call *)
  all: try (rewrite flat_map_nil by auto with evs; try destruct stop; cbn; lia).
  (* CS_invoke, CS_subscribed, CS_iter *)
  all: try (rewrite (pending_invoking r prog pc) by exact INV; subst prog; rewrite ?pending_invoked;
            cbn [pending tl]; unfold prog_regs; cbn [flat_map ev_reg app]; rewrite ?app_nil_r, ?cnt_app; lia).
  (* CS_drain_item: the call is invoked again *)
  destruct prog as [|[] ?]; try discriminate. cbn. lia.
Qed.

Definition adding (th : thread) : list N :=
  match th with TClient _ _ (PSubsAdd se) => [se_id se] | _ => [] end.
Definition unregistered (th : thread) : list N := adding th ++ pending th.
Definition registered_n sid w : nat := cnt sid (ids (w_subs w)).

Lemma cnt_ids_remove l s sid : cnt sid (ids (remove_sub l s)) <= cnt sid (ids l).
Proof.
  unfold ids, remove_sub. induction l as [|x r IH]; [cbn; lia|]. cbn [filter].
  destruct (negb _); cbn [map]; rewrite ?cnt_cons; lia.
Qed.
Lemma cnt_ids_cleared l (rest : list subentry) sid : cnt sid (ids (match rest with [] => [] | _ => l end)) <= cnt sid (ids l).
Proof. destruct rest; cbn; lia. Qed.
Lemma unregistered_invoking r prog pc : invoking r pc -> unregistered (TClient r prog pc) = prog_regs prog.
Proof. now intros [->|(k & k' & -> & _)]. Qed.
Lemma unregistered_invoked r c rest done : unregistered (TClient r (c :: rest) (invoke_pc done c)) = prog_regs (c :: rest).
Proof. unfold unregistered. rewrite pending_invoked. destruct c; cbn; try destruct (memN _ _); reflexivity. Qed.

(* a registration goes from the program to the registration point and from there to the registry *)
Theorem step_registered w t w' sid : step w t = Some w' ->
  held unregistered registered_n sid w' <= held unregistered registered_n sid w.
Proof.
  intros H. step_cases H; try open_at AT; held_rule TH; unfold registered_n; try destruct stop.
  (* most rules leave the thread in the same call; the registry stays or loses entries *)
  all: try (apply Nat.add_le_mono; [apply le_n|first [apply le_n|apply cnt_ids_remove|apply cnt_ids_cleared|apply Nat.le_0_l]]).
  all: simp_step; try (rewrite (unregistered_invoking r prog pc) by exact INV; subst prog).
  - (* CS_panic *) cbn. lia.
  - (* CS_invoke *) now rewrite unregistered_invoked.
  - (* CS_subscribed *) apply le_n.
  - (* CS_iter *) apply le_n.
  - (* CS_add *) rewrite ids_app, cnt_app. cbn [unregistered adding pending app]. rewrite !cnt_cons, cnt_nil. lia.
  - (* CS_drain_item: the call is invoked again *) destruct prog as [|[] ?]; try discriminate. apply le_n.
Qed.

Definition ev_ret (e : event) : list N := match e with ERet _ c _ => reg_sid c | _ => [] end.
Definition hist_rets h : list N := flat_map ev_ret h.
Definition unreturned (th : thread) : list N := match th with TClient _ prog _ => prog_regs prog | _ => [] end.

Lemma ret_head sid t prog res : cnt sid (prog_regs (tl prog)) + cnt sid (hist_rets (ret_events t prog res)) <= cnt sid (prog_regs prog).
Proof. destruct prog as [|c rest]; [apply le_n|]. unfold prog_regs, hist_rets. cbn [tl ret_events flat_map ev_ret]. rewrite app_nil_r, cnt_app. lia. Qed.
Lemma add_nil_le a sid l : l = [] -> a + cnt sid l <= a.
Proof. intros ->. apply Nat.eq_le_incl, Nat.add_0_r. Qed.

Theorem step_returned w t w' sid : step w t = Some w' ->
  held unreturned (hist_n ev_ret) sid w' <= held unreturned (hist_n ev_ret) sid w.
Proof.
  intros H. step_rules H Hh; held_rule TH; apply (hist_n_step _ _ _ _ _ _ _ Hh); try destruct stop.
  (* the rules that keep the program return from nothing *)
  all: try (apply add_nil_le, flat_map_nil; auto with evs; fail).
  (* a return; a send may come before it in the step *)
  all: try (rewrite ?flat_map_app; cbn [flat_map ev_ret app];
            rewrite ?(flat_map_nil ev_ret (dq_events _ _ _)), ?(flat_map_nil ev_ret (sub_events _ _ _ _)) by auto with evs;
            apply ret_head).
  - (* CS_panic *) cbn. lia.
  - (* CS_drain_item: it returns, and is invoked again *)
    destruct prog as [|[] ?]; try discriminate. cbn. lia.
Qed.

(* The three with distinct identifiers. `inv_u` unfolded is `held pending (hist_n ev_reg) sid w <= 1`. *)
Definition inv_u w : Prop :=
  forall sid, cnt sid (all_pending (w_threads w)) + cnt sid (hist_regs (w_hist w)) <= 1.

Theorem registry_nodup reducers mws progs w : distinct_regs progs ->
  reachable cfg reducers mws progs w -> NoDup (ids (w_subs w)).
Proof.
  intros D R. apply (NoDup_count_occ N.eq_dec). intros sid.
  apply (given_once progs sid _ D). etransitivity; [apply Nat.le_add_l|].
  apply (held_given unregistered registered_n reducers mws); try reflexivity; [exact step_registered|exact R].
Qed.
(* C09_registry_unique: unsubscribe removes the caller's entry and nobody else's. The bound is that
   of the property's statement; nothing here needs it. *)
Theorem registry_unique reducers mws progs w : (length progs <= 100)%nat -> distinct_regs progs ->
  reachable cfg reducers mws progs w -> NoDup (ids (w_subs w)).
Proof. intros _. apply registry_nodup. Qed.
Theorem returned_once reducers mws progs w sid : distinct_regs progs ->
  reachable cfg reducers mws progs w -> cnt sid (hist_rets (w_hist w)) <= 1.
Proof.
  intros D R. apply (given_once progs sid _ D).
  etransitivity; [apply Nat.le_add_l|].
  apply (held_given unreturned (hist_n ev_ret) reducers mws); try reflexivity; [exact step_returned|exact R].
Qed.

(* The subscriber entries in use: those of the registry and those a thread holds in its pc - the
   one it is adding, the one it releases or serves (the pc keeps the identifier; the kind is that of
   the pc), the rest of the list it walks through. A property R of entries that holds of the entry a
   registration call stands for when the call is invoked, and that no step takes away, holds of all
   of them (`Step_subs_in`): for `inv_v` R x is "the identifier of x has been invoked", for
   `inv_served` (WorldLive2.v) "x, if channeled, has its thread and its channel", for `inv_kinds f`
   (WorldFlush.v) "x is of a kind f has". *)
Definition reg_sub (c : call) : list subentry :=
  match c with
  | CAddSubscriber s => [mkSub s SKDirect]
  | CSubscribeSelector s sel => [mkSub s (SKSelector sel)]
  | CSubscribed s _ _ => [mkSub s SKChan]
  | CIter s _ _ => [mkSub s SKIter]
  | _ => []
  end.
Definition th_subs (th : thread) : list subentry :=
  match th with
  | TClient _ _ (PSubsAdd se) => [se]
  | TClient _ _ (PUnsubCtx s) | TClient _ _ (PUnsubJoin s) => [mkSub s SKChan]
  | TClient _ _ (PUnsubIterSend s _) => [mkSub s SKIter]
  | TReducer (RNotify _ _ rest _) | TReducer (RClear rest) => rest
  | TReducer (RNotifySend _ _ cur rest _ _) => cur :: rest
  | TReducer (RClearCtx s rest) | TReducer (RClearJoin s rest) => mkSub s SKChan :: rest
  | TReducer (RClearIterSend s rest _) => mkSub s SKIter :: rest
  | TChan s _ => [mkSub s SKChan]
  | _ => []
  end.
Definition subs_in (R : subentry -> Prop) w : Prop :=
  Forall R (w_subs w) /\ threads_all (fun th => Forall R (th_subs th)) (w_threads w).

Lemma subs_in_impl (R R' : subentry -> Prop) w : (forall x, R x -> R' x) -> subs_in R w -> subs_in R' w.
Proof.
  intros M [S T]. split; [exact (Forall_impl _ M S)|]. apply (threads_all_impl _ _ _ T). intros th. apply Forall_impl, M.
Qed.

Lemma subs_notified a s rest n : th_subs (TReducer (next_notify a s rest n)) = rest.
Proof. now destruct rest. Qed.
Lemma subs_cleared rest : th_subs (TReducer (next_clear rest)) = rest.
Proof. now destruct rest. Qed.
Lemma subs_spawn_next a s effs nd : th_subs (TReducer (spawn_next a s effs nd)) = [].
Proof. now destruct effs, nd. Qed.
Lemma subs_invoked r prog done c : th_subs (TClient r prog (invoke_pc done c)) = reg_sub c.
Proof. destruct c; cbn; try destruct (memN _ _); reflexivity. Qed.

Section SubsIn.
Variable R : subentry -> Prop.

Lemma found_in l s se k : Forall R l -> find_sub l s = Some se -> se_kind se = k -> Forall R [mkSub s k].
Proof.
  intros F. induction F as [|x r Rx _ IH]; cbn [find_sub]; [discriminate|].
  destruct (N.eqb_spec (se_id x) s) as [<-|]; [|exact IH]. intros [= <-] <-. destruct x. auto.
Qed.
Lemma head_in x rest k : Forall R (x :: rest) -> se_kind x = k -> Forall R (mkSub (se_id x) k :: rest).
Proof. intros F <-. now destruct x. Qed.
Lemma removed_in l s : Forall R l -> Forall R (remove_sub l s).
Proof. intros F. apply Forall_forall. intros x X. apply filter_In in X. exact (proj1 (Forall_forall _ _) F x (proj1 X)). Qed.
Lemma cleared_in l (rest : list subentry) : Forall R l -> Forall R (match rest with [] => [] | _ => l end).
Proof. now destruct rest. Qed.
Lemma added_in l x : Forall R l -> Forall R [x] -> Forall R (l ++ [x]).
Proof. intros. apply Forall_app. auto. Qed.

#[local] Hint Resolve Forall_inv_tail found_in head_in removed_in cleared_in added_in : subs.

(* what R has to hold of when an event is emitted *)
Definition invoked_in (e : event) : Prop := match e with EInv _ c => Forall R (reg_sub c) | _ => True end.

Theorem Step_subs_in w t evs w' : Step cfg w t evs w' -> Forall invoked_in evs ->
  subs_in R w -> subs_in R w'.
Proof.
  intros H N (S & T). pose proof (T t) as X.
  destruct_Step H; try open_at AT; specialize (X _ TH); cbn [th_subs] in X; try apply Forall_inv in N.
  all: unfold subs_in; simp_step; (split; [|repeat apply threads_all_put; try exact T]);
       rewrite ?subs_notified, ?subs_cleared, ?subs_spawn_next, ?subs_invoked; cbn [th_subs].
  (* an entry a rule finds, walks past, removes, clears or adds: `found_in`, `head_in`, `removed_in`,
     `cleared_in`, `added_in` *)
  all: try destruct stop; eauto 3 with subs.
  (* RS_take, RS_before_dispatch *)
  all: repeat break_goal_match; constructor.
Qed.
End SubsIn.

Definition th_sids (th : thread) : list N :=
  match th with
  | TClient _ _ (PSubsAdd se) => [se_id se]
  | TClient _ _ (PUnsubCtx s) | TClient _ _ (PUnsubJoin s) | TClient _ _ (PUnsubIterSend s _) => [s]
  | TReducer (RNotify _ _ rest _) | TReducer (RClear rest) => ids rest
  | TReducer (RNotifySend _ _ cur rest _ _) => se_id cur :: ids rest
  | TReducer (RClearCtx s rest) | TReducer (RClearJoin s rest) | TReducer (RClearIterSend s rest _) => s :: ids rest
  | TChan s _ => [s]
  | _ => []
  end.
Definition used (sid : N) w : Prop :=
  In sid (ids (w_subs w)) \/ In sid (map fst (w_chans w)) \/
  (exists t th, get_thread (w_threads w) t = Some th /\ In sid (th_sids th)).
Definition inv_v w : Prop := forall sid, used sid w -> In sid (hist_regs (w_hist w)).

Lemma th_sids_subs th : th_sids th = ids (th_subs th).
Proof. destruct th as [? ? []|[]|]; reflexivity. Qed.
Lemma reg_sid_sub c : reg_sid c = ids (reg_sub c).
Proof. destruct c; reflexivity. Qed.

(* the identifiers in use are those of the entries in use and the keys of the channel table *)
Definition ids_in (L : list N) w : Prop := subs_in (fun x => In (se_id x) L) w /\ incl (map fst (w_chans w)) L.
Lemma used_in L w sid : ids_in L w -> used sid w -> In sid L.
Proof.
  intros [[S T] C] [U|[U|(t & th & G & U)]]; [|exact (C _ U)|rewrite th_sids_subs in U];
    apply in_map_iff in U as (x & <- & X); [exact (proj1 (Forall_forall _ _) S x X)|exact (proj1 (Forall_forall _ _) (T _ _ G) x X)].
Qed.

Theorem step_ids_in w t w' : ids_in (hist_regs (w_hist w)) w -> step w t = Some w' -> ids_in (hist_regs (w_hist w')) w'.
Proof.
  intros [V C] H. apply step_inv in H as [evs H]. rewrite (Step_hist _ _ _ _ _ H), hist_regs_app.
  assert (C' : incl (map fst (w_chans w)) (hist_regs (rev evs) ++ hist_regs (w_hist w))) by now apply incl_appr.
  split.
  - (* the identifier of a call that is invoked enters the history *)
    eapply Step_subs_in; [exact H| |revert V; apply subs_in_impl; intros x X; apply in_or_app; now right].
    apply Forall_forall. intros e E. destruct e; try exact I. apply Forall_forall. intros x X. apply in_or_app. left.
    apply in_flat_map. eexists. split; [apply -> in_rev; exact E|]. cbn. rewrite reg_sid_sub. exact (in_map _ _ _ X).
  - (* writing to a channel and hanging up leave the keys; a new channel is named after the call that
       creates it *)
    destruct_Step H; simp_step; rewrite ?hang_up_keys; try rewrite (put_chan_keys _ _ _ _ CHAN); try exact C'.
    all: intros z Z; apply put_chan_key in Z as [->|Z]; [apply in_or_app; left; cbn; auto|exact (C' _ Z)].
Qed.

Theorem reachable_v reducers mws progs w : reachable cfg reducers mws progs w -> inv_v w.
Proof.
  intros R sid. apply used_in. revert w R. apply reachable_ind; [|intros w t w' _; apply step_ids_in].
  repeat split; [constructor| |intros s []]. apply init_threads_all; constructor.
Qed.

Theorem reachable_uv reducers mws progs w : distinct_regs progs ->
  reachable cfg reducers mws progs w -> inv_u w /\ inv_v w.
Proof.
  intros D R. split; [|exact (reachable_v _ _ _ _ R)]. intros sid.
  apply (given_once progs sid _ D), (held_given pending (hist_n ev_reg) reducers mws); try reflexivity; [exact step_invoked|exact R].
Qed.

(* a registration still to invoke: its identifier is not in use *)
Lemma pending_in_table w t r c rest pc sid : get_thread (w_threads w) t = Some (TClient r (c :: rest) pc) ->
  invoking r pc -> In sid (reg_sid c) -> In sid (all_pending (w_threads w)).
Proof.
  intros G INV IN. apply in_flat_map. exists (t, TClient r (c :: rest) pc). split; [now apply get_thread_in|].
  cbn [snd]. rewrite pending_invoking by exact INV. apply in_or_app. now left.
Qed.
Lemma pending_not_invoked w sid : inv_u w -> In sid (all_pending (w_threads w)) ->
  ~ In sid (hist_regs (w_hist w)).
Proof. intros U P X. apply cnt_in in P, X. specialize (U sid). lia. Qed.
Theorem pending_is_fresh w sid : inv_u w -> inv_v w -> In sid (all_pending (w_threads w)) -> ~ used sid w.
Proof. intros U V P X. exact (pending_not_invoked w sid U P (V sid X)). Qed.

End WorldSids.
