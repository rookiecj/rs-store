(* WorldRelease.v — direct subscribers are released exactly once (C09). For programs whose
   registration calls carry pairwise distinct identifiers: the on_unsubscribe calls received so far
   by the direct subscriber sid, plus 1 if it is still registered (still to be released by the
   shutdown in progress), equal the number of add_subscriber(sid) calls that have returned. *)
From RS Require Import Base Pipeline PipelineProofs World WorldTactics WorldStep Hist WorldProofs WorldQueue WorldSids.

Section WorldRelease.
Context {State : Type}.
Variable cfg : wconfig (State := State).
Notation step := (step cfg).
Notation event := (event (State := State)).
Notation in_call := (in_call (State := State)).
Implicit Types w : World.world (State := State).
Implicit Types h : list event.

Definition is_direct (x : subentry) : bool := match se_kind x with SKDirect => true | _ => false end.
Definition dcount (sid : N) (l : list subentry) : nat := cnt sid (ids (filter is_direct l)).

(* releases of a direct subscriber: in the caller's context (unsubscribe) or the reducer's (shutdown) *)
Definition c_rel (sid : N) (e : event) : nat :=
  match e with
  | ECb (XThread _) (CbOnUnsub s) | ECb XReducer (CbOnUnsub s) => if N.eq_dec s sid then 1 else 0
  | _ => 0
  end.
Definition c_ret (sid : N) (e : event) : nat :=
  match e with ERet _ (CAddSubscriber s) _ => if N.eq_dec s sid then 1 else 0 | _ => 0 end.
Fixpoint tot (f : event -> nat) h : nat := match h with [] => 0 | e :: r => f e + tot f r end.
Lemma tot_app f h1 h2 : tot f (h1 ++ h2) = tot f h1 + tot f h2.
Proof. induction h1 as [|e r IH]; cbn; [reflexivity|]. rewrite IH. lia. Qed.
Lemma tot_rev f h : tot f (rev h) = tot f h.
Proof. induction h as [|e r IH]; cbn; [reflexivity|]. rewrite tot_app, IH. cbn. lia. Qed.
Lemma tot_hist f evs h : tot f (rev evs ++ h) = tot f evs + tot f h.
Proof. now rewrite tot_app, tot_rev. Qed.
Lemma tot_zero f h : Forall (fun e => f e = 0) h -> tot f h = 0.
Proof. induction 1 as [|e r E _ IH]; cbn; [reflexivity|]. now rewrite E, IH. Qed.

(* direct entries still to be released: the registry, or what is left of it during the shutdown *)
Definition live (sid : N) (subs : list subentry) (pc : rpc (State := State)) : nat :=
  match pc with
  | RClear rest | RClearCtx _ rest | RClearJoin _ rest | RClearIterSend _ rest _ => dcount sid rest
  | _ => dcount sid subs
  end.

Definition dweight (sid : N) (x : subentry) : nat :=
  if is_direct x then (if N.eq_dec (se_id x) sid then 1 else 0) else 0.
Lemma dcount_cons sid x l : dcount sid (x :: l) = dweight sid x + dcount sid l.
Proof.
  unfold dcount, dweight. cbn [filter]. destruct (is_direct x); [|reflexivity].
  cbn [ids map]. now rewrite cnt_cons.
Qed.
Lemma dcount_app sid l x : dcount sid (l ++ [x]) = dcount sid l + dweight sid x.
Proof. induction l as [|y r IH]; cbn [app]; rewrite ?dcount_cons; [cbn; lia|]. rewrite IH. lia. Qed.
Lemma remove_absent l s : ~ In s (ids l) -> remove_sub l s = l.
Proof.
  unfold remove_sub. induction l as [|x r IH]; cbn; [reflexivity|]. intros N.
  destruct (N.eqb_spec (se_id x) s) as [E|E]; [exfalso; apply N; now left|]. rewrite IH; auto.
Qed.
Lemma dcount_remove l s se z : NoDup (ids l) -> find_sub l s = Some se ->
  dcount z (remove_sub l s) + dweight z se = dcount z l /\ se_id se = s.
Proof.
  induction l as [|x r IH]; cbn [find_sub]; [discriminate|]. intros ND F. inversion ND as [|? ? NI ND']; subst.
  unfold remove_sub. cbn [filter]. destruct (N.eqb_spec (se_id x) s) as [E|E].
  - injection F as <-. cbn [negb]. fold (remove_sub r s). rewrite remove_absent by (rewrite <- E; exact NI).
    rewrite dcount_cons. split; [lia|exact E].
  - cbn [negb]. fold (remove_sub r s). rewrite !dcount_cons. destruct (IH ND' F) as [A B]. split; [lia|exact B].
Qed.

(* the books of sid over a history, a registry and a pc of the reducer *)
Definition rbooks (sid : N) h (subs : list subentry) (pc : rpc (State := State)) : Prop :=
  tot (c_rel sid) h + live sid subs pc = tot (c_ret sid) h.
Definition inv_released w : Prop :=
  forall sid pc, get_thread (w_threads w) reducer_tid = Some (TReducer pc) -> rbooks sid (w_hist w) (w_subs w) pc.

(* "e neither releases nor registers z" is written as one equation over both weights, so that it is
   decided by one computation per event *)
Lemma norel_tot z evs : Forall (fun e => c_rel z e + c_ret z e = 0) evs -> tot (c_rel z) evs = 0 /\ tot (c_ret z) evs = 0.
Proof. intros Q. split; apply tot_zero; (eapply Forall_impl; [|exact Q]); intros e R; cbv beta in R; lia. Qed.
(* only a thread registering a subscriber returns from add_subscriber *)
Definition no_add (pc : cpc) : bool := match pc with PSubsAdd _ | PIdle | PTaskStart _ _ => false | _ => true end.
Lemma norel_ret z r prog pc : in_call (TClient r prog pc) -> no_add pc = true ->
  forall t res, Forall (fun e => c_rel z e + c_ret z e = 0) (ret_events t prog res).
Proof.
  intros [->|[(k & v & -> & _)|(c & rest & done & -> & W)]] NA t res; try discriminate.
  repeat constructor. destruct c; try reflexivity.
  destruct pc; try discriminate; destruct W; discriminate.
Qed.

Lemma live_free w pc z subs : subs_free w = true -> get_thread (w_threads w) reducer_tid = Some (TReducer pc) ->
  live z subs pc = dcount z subs.
Proof.
  intros F G. pose proof (free_get holds_subs _ _ _ F G) as X. destruct pc; try discriminate; reflexivity.
Qed.

Lemma rbooks_step z l h subs pc subs' pc' : rbooks z h subs pc ->
  tot (c_rel z) l + live z subs' pc' = tot (c_ret z) l + live z subs pc -> rbooks z (rev l ++ h) subs' pc'.
Proof. unfold rbooks. rewrite !tot_hist. lia. Qed.
Lemma rbooks_quiet z l h subs pc subs' pc' : rbooks z h subs pc -> Forall (fun e => c_rel z e + c_ret z e = 0) l ->
  live z subs' pc' = live z subs pc -> rbooks z (rev l ++ h) subs' pc'.
Proof. intros B Q E. apply (rbooks_step z l h subs pc subs' pc' B). destruct (norel_tot z l Q) as [-> ->]. now rewrite E. Qed.

Lemma live_cleared z subs rest :
  live z (match rest with [] => [] | _ => subs end) (next_clear rest) = dcount z rest.
Proof. now destruct rest. Qed.
Lemma dcount_skip z x rest : is_direct x = false -> dcount z (x :: rest) = dcount z rest.
Proof. intros D. rewrite dcount_cons. unfold dweight. now rewrite D. Qed.

Lemma dcount_remove_other l s se z : NoDup (ids l) -> find_sub l s = Some se -> is_direct se = false ->
  dcount z (remove_sub l s) = dcount z l.
Proof. intros ND F D. destruct (dcount_remove _ _ _ z ND F) as [E _]. unfold dweight in E. rewrite D in E. lia. Qed.
(* the return from a registration is a return from add_subscriber iff the entry is direct *)
Lemma ret_add z r prog se t : in_call (TClient r prog (PSubsAdd se)) ->
  tot (c_rel z) (ret_events t prog RUnit) = 0 /\ tot (c_ret z) (ret_events t prog RUnit) = dweight z se.
Proof.
  intros [E|[(k & v & E & _)|(c & rest & done & -> & W)]]; try discriminate.
  destruct c; cbn in W; try destruct (memN _ _); try discriminate; injection W as <-; cbn; auto.
Qed.

Theorem step_released w t w' : threads_all in_call (w_threads w) -> NoDup (ids (w_subs w)) -> inv_released w ->
  step w t = Some w' -> inv_released w'.
Proof.
  intros IC ND IR H z pc' G'. pose proof (fun NR => step_keeps_reducer cfg w t w' _ _ H NR G') as RK.
  step_rules H Hh; rewrite Hh; clear Hh; try open_at AT; pose proof (IC _ _ TH) as X.
  (* the reducer stays where it is, or is moved by its own step; a step of another thread changes the
     registry only under its lock, which a reducer in its shutdown release would hold: with the lock
     free the reducer is outside its release and `live` is `dcount` of the registry (`live_free`) *)
  all: first [assert (G0 : get_thread (w_threads w) reducer_tid = Some (TReducer pc')) by (apply RK; intros ?; rewrite TH; discriminate);
              specialize (IR z _ G0)
             |simp_step; rewrite get_put_same in G'; injection G' as <-; specialize (IR z _ TH)]; clear RK.
  (* steps that neither release nor register: `live` stays as it is (unsubscribing a subscriber that
     is not direct, or passing over one in the shutdown release, leaves the count as it is) *)
  all: try (apply (rbooks_quiet _ _ _ _ _ _ _ IR);
            [first [auto 7 using (norel_ret z _ _ _ X) with evs|auto with evs]
            |first [reflexivity
                   |(* an entry that is not direct leaves the registry, under the lock *)
                    simp_step; rewrite !(live_free w pc' z _ FREE G0); apply (dcount_remove_other _ _ _ z ND FIND); unfold is_direct; now rewrite KIND
                   |(* the reducer's next pc holds the same entries, or has passed over one that is not direct *)
                    rewrite ?live_cleared; autounfold with next_pc; repeat break_goal_match;
                    first [reflexivity|symmetry; apply dcount_skip; unfold is_direct; now rewrite KIND]]]; fail).
  (* a direct subscriber is registered, unsubscribed or released *)
  all: apply (rbooks_step _ _ _ _ _ _ _ IR); simp_step; try rewrite !(live_free w pc' z _ FREE G0).
  - (* CS_add *) destruct (ret_add z _ _ _ t X) as [-> ->]. rewrite dcount_app. lia.
  - (* CS_unsub_direct *)
    destruct (norel_tot z _ (norel_ret z _ _ _ X eq_refl t (unsub_result prog))) as [R1 R2].
    destruct (dcount_remove _ _ _ z ND FIND) as [DR DS]. unfold dweight, is_direct in DR. rewrite KIND, DS in DR.
    cbn [tot c_rel c_ret]. lia.
  - (* RS_clear_direct *)
    rewrite live_cleared. cbn [live]. rewrite dcount_cons. unfold dweight, is_direct. rewrite KIND. cbn. lia.
Qed.

Lemma ret_rets sid h : tot (c_ret sid) h <= cnt sid (hist_rets h).
Proof.
  induction h as [|e r IH]; [cbn; lia|].
  change (hist_rets (e :: r)) with (ev_ret e ++ hist_rets r). rewrite cnt_app. cbn [tot].
  destruct e; cbn [c_ret ev_ret]; try lia.
  destruct c; cbn [reg_sid]; rewrite ?cnt_cons; lia.
Qed.

Theorem reachable_released reducers mws progs w : distinct_regs progs ->
  reachable cfg reducers mws progs w -> inv_released w.
Proof.
  intros D. revert w. apply reachable_ind.
  - intros sid pc G. now apply init_reducer_pc in G as ->.
  - intros w t w' R. eapply step_released; eauto using reachable_in_call, registry_nodup.
Qed.

(* C09_released_exactly_once: the balance, and at most one add_subscriber(sid) call returns; so
   never twice, and once when `live` is 0 (the bound on the programs is not used) *)
Theorem released_exactly_once reducers mws progs w sid pc : (length progs <= 100)%nat ->
  distinct_regs progs -> reachable cfg reducers mws progs w ->
  get_thread (w_threads w) reducer_tid = Some (TReducer pc) ->
  tot (c_rel sid) (w_hist w) + live sid (w_subs w) pc = tot (c_ret sid) (w_hist w) /\
  tot (c_ret sid) (w_hist w) <= 1.
Proof.
  intros _ D R G. split; [exact (reachable_released _ _ _ _ D R sid pc G)|].
  pose proof (ret_rets sid (w_hist w)). pose proof (returned_once cfg _ _ _ _ sid D R). lia.
Qed.
End WorldRelease.
