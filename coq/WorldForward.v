(* WorldForward.v — what the reducer forwards into a subscription channel (channeled subscriber,
   state iterator) is what the snapshots owe it (C10 "the sequence a direct subscriber would
   receive", C14 "every notifying action since the iterator was created"): with pairwise distinct
   registration identifiers, for every blocking subscription channel whose sender is alive, the
   actions forwarded so far followed by what the notification in progress has still to forward are
   one entry per snapshot that contains the subscriber, in snapshot order. These are the `books` (Hist.v)
   of WorldNotify.v for the forwarding kinds: `pendingf`, `snap_fwd`, `pendingf_notified` play the parts of
   `pending`, `snap_deliv`, `pending_notified`; the step case first takes the guard (a blocking channel
   with a sender) back to the old world, the rest is about a history and a pc (`fbooks`). *)
From RS Require Import Base Channel ChannelProofs Script World WorldTactics Hist WorldStep WorldProofs WorldSubs WorldSids WorldFwdFinal.

Section WorldForward.
Context {State : Type}.
Variable cfg : wconfig (State := State).
Notation step := (step cfg).
Notation event := (event (State := State)).
Implicit Types w : World.world (State := State).
Implicit Types h : list event.

(* `forwards` (WorldStep.v) as a test *)
Definition is_fwd (x : subentry) : bool :=
  match se_kind x with SKChan | SKIter => true | _ => false end.
Definition owes (sid : N) (x : subentry) : bool := is_fwd x && N.eqb (se_id x) sid.
Definition snap_fwd (sid : N) (a : aid) (snap : list subentry) : list aid :=
  map (fun _ => a) (filter (owes sid) snap).

(* no `rev` as in `ev_owed` of WorldNotify.v: all entries are the same action (`snap_fwd_rev`) *)
Definition ev_fowed (sid : N) (e : event) : list aid :=
  match e with ESnapshot a _ snap => snap_fwd sid a snap | _ => [] end.
Definition fowed sid h : list aid := flat_map (ev_fowed sid) h.      (* newest first *)

Definition cur_fwd (sid : N) (a : aid) (cur : subentry) : list aid :=
  if N.eqb (se_id cur) sid then [a] else [].
Definition pendingf (sid : N) (pc : rpc (State := State)) : list aid :=
  match pc with
  | RNotify a _ rest _ => snap_fwd sid a rest
  | RNotifySend a _ cur rest _ _ => cur_fwd sid a cur ++ snap_fwd sid a rest
  | _ => []
  end.
(* carried with the equation: from another phase (SDo3) a send can end without forwarding *)
Definition parked (sid : N) (pc : rpc (State := State)) : Prop :=
  match pc with RNotifySend _ _ cur _ _ ph => se_id cur = sid -> ph = SBlockWait | _ => True end.

Definition alive_block (chans : list (N * chan (State * aid))) (sid : N) : Prop :=
  exists c, get_chan chans sid = Some c /\ pol c = Block /\ tx_alive c = true.

(* A subscription channel is created when its registration call is invoked, and before that nothing
   is owed or forwarded to the identifier: what was forwarded since the channel was created
   (`subsends`) is all that was ever forwarded to it (`fwd`), over which `inv_fwd` is stated. *)
Definition sid_hist h : Prop :=
  forall sid,
    (~ In sid (hist_regs h) -> fowed sid h = [] /\ fwd sid h = []) /\ subsends sid h = fwd sid h.

(* the books (`books`, Hist.v) of one identifier: owed is `fowed sid h`, done is `fwd sid h` *)
Definition fbooks (sid : N) h (pc : rpc (State := State)) : Prop :=
  books (ev_fowed sid) (ev_subsend sid) h (pendingf sid pc) /\ parked sid pc.

Definition inv_fwd w : Prop :=
  forall sid pc, get_thread (w_threads w) reducer_tid = Some (TReducer pc) -> alive_block (w_chans w) sid ->
    fbooks sid (w_hist w) pc.

Definition fquiet (e : event) : Prop := match e with ESubSend _ _ | ESnapshot _ _ _ => False | _ => True end.

Lemma fbooks_quiet sid l h pc pc' : Forall fquiet l -> fbooks sid h pc ->
  pendingf sid pc' = pendingf sid pc -> (parked sid pc -> parked sid pc') -> fbooks sid (rev l ++ h) pc'.
Proof.
  intros Q [B K] E KK. split; [|auto].
  apply (books_quiet _ _ _ _ _ _ B E); (eapply Forall_impl; [|exact Q]); now intros [].
Qed.

Lemma subsends_new sid sid0 h :
  subsends sid (ESubNew sid0 :: h) = if N.eqb sid0 sid then [] else subsends sid h.
Proof. unfold subsends. cbn [since is_new]. now destruct (N.eqb sid0 sid). Qed.

Lemma sub_events_sends sid s x sr dr :
  flat_map (ev_subsend sid) (rev (sub_events (State := State) s x sr dr)) =
    match sr, x with
    | SDone true, IAct (_, a) => if N.eqb s sid then [a] else []
    | _, _ => []
    end.
Proof.
  unfold sub_events. rewrite rev_app_distr, flat_map_app, (flat_map_nil _ (rev (map _ dr))), app_nil_r by now apply Forall_rev, Forall_map, Forall_forall.
  destruct sr as [?|[]], x as [[? a]|]; try reflexivity. apply app_nil_r.
Qed.
Lemma sub_events_fwd sid s x sr dr h :
  fowed sid (rev (sub_events s x sr dr) ++ h) = fowed sid h /\
  fwd sid (rev (sub_events s x sr dr) ++ h) =
    match sr, x with
    | SDone true, IAct (_, a) => if N.eqb s sid then [a] else []
    | _, _ => []
    end ++ fwd sid h.
Proof. split; [apply flat_map_quiet; auto with evs|]. unfold fwd. now rewrite flat_map_app, sub_events_sends. Qed.

Definition chans_back (sid : N) (old new : list (N * chan (State * aid))) : Prop :=
  alive_block new sid -> alive_block old sid.

Lemma chans_back_refl sid l : chans_back sid l l.
Proof. intros H; exact H. Qed.
Lemma chans_back_put sid l s c c' : get_chan l s = Some c ->
  (tx_alive c' = true -> pol c' = pol c /\ tx_alive c = true) -> chans_back sid l (put_chan l s c').
Proof.
  intros G H (c0 & G0 & P & A). apply get_put_chan_inv in G0. destruct G0 as [[-> ->]|[_ G0]]; [|now exists c0].
  destruct (H A) as [PP AA]. exists c. repeat split; congruence.
Qed.
Lemma chans_back_trans sid l1 l2 l3 : chans_back sid l1 l2 -> chans_back sid l2 l3 -> chans_back sid l1 l3.
Proof. unfold chans_back. auto. Qed.
Lemma chans_back_recv sid l s c r : get_chan l s = Some c -> chans_back sid l (put_chan l s (set_q c r)).
Proof. intros G. apply (chans_back_put sid l s c _ G). now split. Qed.
Lemma chans_back_send sid l s c x ph c' sr dr : get_chan l s = Some c -> send_phase c x ph = Some (c', sr, dr) ->
  chans_back sid l (put_chan l s c').
Proof.
  intros G S. apply (chans_back_put sid l s c c' G). apply send_phase_keeps in S. destruct S as (_ & P & T & _).
  intros A. split; congruence.
Qed.
Lemma chans_back_hang_up sid l s : chans_back sid l (hang_up l s).
Proof.
  unfold hang_up. destruct (get_chan l s) as [c|] eqn:G; [|apply chans_back_refl].
  apply (chans_back_put sid l s c _ G). discriminate.
Qed.
Create HintDb chans_back.
Local Hint Resolve chans_back_refl chans_back_recv chans_back_send chans_back_hang_up : chans_back.

Lemma regs_mono sid l h : ~ In sid (hist_regs (l ++ h)) -> ~ In sid (hist_regs h).
Proof. rewrite hist_regs_app. intros N I. apply N. apply in_or_app. now right. Qed.

Lemma snap_fwd_fresh sid a l : ~ In sid (ids l) -> snap_fwd sid a l = [].
Proof.
  unfold snap_fwd. induction l as [|x r IH]; [reflexivity|]. cbn [map filter In]. intros N.
  unfold owes at 1. destruct (N.eqb_spec (se_id x) sid) as [E|E]; [exfalso; apply N; now left|].
  rewrite andb_false_r. apply IH. intros I. apply N. now right.
Qed.

Lemma sid_hist_quiet evs h : (forall sid, Forall (fun e => is_new sid e = false) evs) ->
  (forall sid, ~ In sid (hist_regs h) -> Forall (fun e => ev_fowed sid e = [] /\ ev_subsend sid e = []) evs) ->
  sid_hist h -> sid_hist (rev evs ++ h).
Proof.
  intros NN Q I sid. destruct (I sid) as [A B]. split.
  - intros N. apply regs_mono in N. destruct (A N) as [A1 A2].
    split; [rewrite <- A1|rewrite <- A2]; apply flat_map_quiet; (eapply Forall_impl; [|exact (Q sid N)]); now intros e [].
  - unfold subsends, fwd in *. rewrite since_app by apply existsb_quiet, NN. now rewrite !flat_map_app, B.
Qed.
Lemma sid_hist_new sid0 h : fwd sid0 h = [] -> sid_hist h -> sid_hist (ESubNew sid0 :: h).
Proof.
  intros F I sid. destruct (I sid) as [A B]. split; [exact A|].
  change (fwd sid (ESubNew sid0 :: h)) with (fwd sid h). rewrite subsends_new.
  destruct (N.eqb_spec sid0 sid) as [<-|]; [now rewrite F|exact B].
Qed.

Lemma forwarding_used w pc a s x rest n ph : forwarding w pc a s x rest n ph -> In (se_id x) (th_sids (TReducer pc)).
Proof. intros [(-> & _)| ->]; now left. Qed.

Theorem step_sid_hist w t w' : inv_u w -> inv_v w -> sid_hist (w_hist w) -> step w t = Some w' -> sid_hist (w_hist w').
Proof.
  intros U V I H. step_rules H Hh; rewrite Hh.
  all: try (apply sid_hist_quiet; [intros ?; auto with evs|intros ? _; auto 6 with evs|exact I]; fail).
  1-2: (* CS_subscribed, CS_iter: the identifier is fresh *)
    subst prog; apply sid_hist_new; [|apply (sid_hist_quiet [_]); [intros ?|intros ? _|exact I]; now constructor];
    apply (I sid), (pending_not_invoked w sid U); eapply pending_in_table; [exact TH|exact INV|now left].
  1: { (* RS_snapshot: the registry holds registered identifiers only *)
    apply (sid_hist_quiet [_]); [intros ?; now constructor| |exact I]. intros z N. constructor; [|constructor].
    split; [|reflexivity]. apply snap_fwd_fresh. intros X. apply N, V. now left. }
  (* RS_forward, RS_forwarded: the identifier of an entry of the snapshot is in use, hence registered *)
  all: apply sid_hist_quiet; [intros ?; auto with evs| |exact I]; intros z N.
  all: assert (NE : N.eqb (se_id x) z = false) by
         (apply N.eqb_neq; intros <-; apply N, V; right; right; eauto using forwarding_used).
  all: apply Forall_sub_events; [now split|]; intros a0; cbn; now rewrite NE.
Qed.

Definition outside_notify (pc : rpc (State := State)) : Prop := forall sid, pendingf sid pc = [] /\ parked sid pc.
Lemma clearing_outside pc sid rest ph : clearing_iter pc sid rest ph -> outside_notify pc.
Proof. now intros [(x & -> & _)| ->]. Qed.
Lemma fbooks_outside sid l h pc pc' : Forall fquiet l -> fbooks sid h pc -> outside_notify pc -> outside_notify pc' ->
  fbooks sid (rev l ++ h) pc'.
Proof. intros Q B P P'. destruct (P' sid) as [E K]. apply (fbooks_quiet sid l h pc); auto. now rewrite (proj1 (P sid)). Qed.

Lemma pendingf_notified sid a s rest n :
  pendingf sid (next_notify a s rest n) = snap_fwd sid a rest /\ parked sid (next_notify a s rest n).
Proof. destruct rest; cbn; auto. Qed.

Lemma snap_fwd_cons sid a x rest :
  snap_fwd sid a (x :: rest) = (if owes sid x then [a] else []) ++ snap_fwd sid a rest.
Proof. unfold snap_fwd. cbn [filter]. destruct (owes sid x); reflexivity. Qed.

Lemma snap_fwd_rev sid a l : rev (snap_fwd sid a l) = snap_fwd sid a l.
Proof.
  unfold snap_fwd. induction (filter (owes sid) l) as [|y r IH]; [reflexivity|]. cbn [map rev]. rewrite IH. clear IH.
  induction r as [|z r IH]; [reflexivity|]. cbn [map app]. now rewrite IH.
Qed.

(* an entry of the snapshot the reducer passes *)
Lemma fbooks_skip sid l h pc a s rest n : Forall fquiet l -> fbooks sid h pc ->
  pendingf sid pc = snap_fwd sid a rest -> fbooks sid (rev l ++ h) (next_notify a s rest n).
Proof. intros Q B P. destruct (pendingf_notified sid a s rest n) as [E K]. apply (fbooks_quiet sid l h pc); auto. congruence. Qed.
Lemma pendingf_skip chans sid a s x rest n : is_fwd x = false \/ ~ alive_block chans (se_id x) ->
  alive_block chans sid -> pendingf sid (RNotify a s (x :: rest) n) = snap_fwd sid a rest.
Proof.
  intros SK AB. cbn [pendingf]. rewrite snap_fwd_cons. unfold owes. destruct SK as [->|NA]; [reflexivity|].
  destruct (N.eqb_spec (se_id x) sid) as [<-|]; [contradiction|]. now rewrite andb_false_r.
Qed.

Lemma forwards_is_fwd x : forwards x -> is_fwd x = true.
Proof. unfold is_fwd. now intros [->| ->]. Qed.
Lemma forwarding_pending w pc a s x rest n ph sid : forwarding w pc a s x rest n ph ->
  pendingf sid pc = cur_fwd sid a x ++ snap_fwd sid a rest.
Proof.
  intros [(-> & _ & K & _)| ->]; [|reflexivity]. cbn [pendingf]. rewrite snap_fwd_cons. unfold owes.
  now rewrite (forwards_is_fwd x K).
Qed.
Lemma forwarding_missing w pc a s x rest n ph sid : forwarding w pc a s x rest n ph ->
  get_chan (w_chans w) (se_id x) = None -> alive_block (w_chans w) sid -> pendingf sid pc = snap_fwd sid a rest.
Proof.
  intros AT N (c & G & _). rewrite (forwarding_pending _ _ _ _ _ _ _ _ sid AT). unfold cur_fwd.
  destruct (N.eqb_spec (se_id x) sid) as [E|]; [congruence|reflexivity].
Qed.

Lemma fbooks_snapshot sid h a s subs n :
  fbooks sid h (RSnapshot a s) -> fbooks sid (ESnapshot a s subs :: h) (next_notify a s subs n).
Proof.
  intros [B _]. destruct (pendingf_notified sid a s subs n) as [E K]. split; [|exact K].
  rewrite E, <- snap_fwd_rev. exact (books_owe (ev_fowed sid) (ev_subsend sid) (ESnapshot a s subs) _ _ eq_refl B).
Qed.

Lemma fbooks_forward w sid h pc a s x rest n ph c c' sr dr :
  forwarding w pc a s x rest n ph -> get_chan (w_chans w) (se_id x) = Some c ->
  send_phase c (IAct (s, a)) ph = Some (c', sr, dr) -> alive_block (w_chans w) sid -> fbooks sid h pc ->
  fbooks sid (rev (sub_events (se_id x) (IAct (s, a)) sr dr) ++ h)
    match sr with SMore ph' => RNotifySend a s x rest n ph' | SDone _ => next_notify a s rest n end.
Proof.
  intros AT GC SP AB [EI NB]. unfold fbooks, books in *.
  destruct (sub_events_fwd sid (se_id x) (IAct (s, a)) sr dr h) as [E1 E2]. unfold fowed, fwd in E1, E2. rewrite E1, E2.
  rewrite (forwarding_pending w pc a s x rest n ph sid AT) in EI.
  destruct (pendingf_notified sid a s rest n) as [PN NN]. unfold cur_fwd in *.
  destruct (N.eqb_spec (se_id x) sid) as [EQ|NE].
  - (* the channel of sid itself: it blocks *)
    assert (PB : pol c = Block) by (destruct AB as (c0 & G0 & P0 & _); congruence).
    destruct AT as [(-> & -> & _)| ->].
    + (* first phase: parks before the blocking send *)
      cbn [send_phase] in SP. rewrite PB in SP. injection SP as <- <- <-.
      cbn [pendingf parked app]. unfold cur_fwd. rewrite (proj2 (N.eqb_eq _ _) EQ). now split.
    + (* it is parked there: the blocking send *)
      rewrite (NB EQ) in SP. cbn [send_phase] in SP. unfold send_block in SP.
      destruct (try_send c (IAct (s, a))) as [c1|]; [|discriminate]. injection SP as <- <- <-.
      rewrite PN. split; [|exact NN]. cbn [app rev]. rewrite EI, <- app_assoc. reflexivity.
  - (* another channel *)
    destruct sr as [ph'|ok].
    + cbn [pendingf parked app]. unfold cur_fwd. rewrite (proj2 (N.eqb_neq _ _) NE). now split.
    + rewrite PN. split; [destruct ok; exact EI|exact NN].
Qed.

Lemma pendingf_unused sid pc : ~ In sid (th_sids (TReducer pc)) -> pendingf sid pc = [] /\ parked sid pc.
Proof.
  intros NT. destruct pc; cbn [pendingf parked th_sids] in *; try (now split).
  - now rewrite snap_fwd_fresh.
  - unfold cur_fwd. destruct (N.eqb_spec (se_id cur) sid) as [E|E]; [exfalso; apply NT; now left|].
    rewrite snap_fwd_fresh by (intros X; apply NT; now right). now split.
Qed.

(* the books of a channel that is alive and blocks once sid0 has got its channel: a new channel's
   identifier is fresh, so nothing is owed, forwarded or pending *)
Lemma create_fwd w sid0 n p sid pc :
  inv_u w -> inv_v w -> sid_hist (w_hist w) -> In sid0 (all_pending (w_threads w)) ->
  get_thread (w_threads w) reducer_tid = Some (TReducer pc) -> inv_fwd w ->
  alive_block (put_chan (w_chans w) sid0 (chan_new n p)) sid -> fbooks sid (w_hist w) pc.
Proof.
  intros U V IH P G F AB. destruct (N.eq_dec sid0 sid) as [<-|NE].
  - destruct (proj1 (IH sid0) (pending_not_invoked w sid0 U P)) as [O D].
    destruct (pendingf_unused sid0 pc) as [E K]; [|split; [|exact K]].
    + intros X. apply (pending_is_fresh w sid0 U V P). right; right. eauto.
    + unfold books. unfold fowed, fwd in O, D. now rewrite O, D, E.
  - apply (F sid pc G). destruct AB as (c0 & G0 & A0). rewrite get_put_chan_other in G0 by auto. exists c0. auto.
Qed.

Theorem step_fwd w t w' : inv_u w -> inv_v w -> sid_hist (w_hist w) -> inv_fwd w -> step w t = Some w' -> inv_fwd w'.
Proof.
  intros U V IH F H z pc' G' AB.
  pose proof (fun NR => step_keeps_reducer cfg w t w' _ _ H NR G') as RK. step_rules H Hh; rewrite Hh; clear Hh.
  (* clients and subscribers' threads; a channel they act on keeps or loses its sender, so z had a
     blocking channel with a sender before *)
  all: try (apply (fbooks_quiet z _ _ pc'); [auto with evs| |reflexivity|auto]; apply F; [apply RK; congruence|];
            refine ((_ : chans_back z (w_chans w) _) AB); simp_step; eauto with chans_back; fail).
  (* CS_subscribed, CS_iter: or its channel is new *)
  1-2: subst prog; apply (fbooks_quiet z _ _ pc'); [auto with evs| |reflexivity|auto];
       apply (create_fwd w sid n p); auto; [eapply pending_in_table; [exact TH|exact INV|now left]|apply RK; congruence].
  (* the reducer; likewise *)
  all: clear RK; simp_step; rewrite get_put_same in G'; injection G' as <-.
  all: assert (AB0 : alive_block (w_chans w) z) by (refine ((_ : chans_back z (w_chans w) _) AB); eauto with chans_back);
       clear AB; specialize (F z _ TH AB0).
  (* the reducer outside a notification *)
  all: try (eapply fbooks_outside; [auto with evs|exact F|first [now split|exact (clearing_outside _ _ _ _ AT)]
                                   |autounfold with next_pc; repeat break_goal_match; now split]; fail).
  (* RS_forward, RS_forwarded *)
  all: try (exact (fbooks_forward _ _ _ _ _ _ _ _ _ _ _ _ _ _ AT CHAN SEND AB0 F)).
  1: (* RS_snapshot *) apply fbooks_snapshot; exact F.
  (* entries of the snapshot the reducer passes *)
  all: eapply fbooks_skip; [auto with evs|exact F|].
  - (* RS_notify_direct *) apply (pendingf_skip (w_chans w)); [left; unfold is_fwd; now rewrite KIND|exact AB0].
  - (* RS_notify_selector *) apply (pendingf_skip (w_chans w)); [left; unfold is_fwd; now rewrite KIND|exact AB0].
  - (* RS_notify_dead *)
    apply (pendingf_skip (w_chans w)); [right|exact AB0]. intros (c & G & _ & A). rewrite (DEAD _ G) in A. discriminate A.
  - (* RS_forward_no_chan *) exact (forwarding_missing _ _ _ _ _ _ _ _ z AT CHAN AB0).
Qed.

Theorem reachable_sid_hist reducers mws progs w : distinct_regs progs ->
  reachable cfg reducers mws progs w -> sid_hist (w_hist w).
Proof.
  intros D. apply (reachable_ind cfg _ _ _ (fun w => sid_hist (w_hist w))); [intros sid; now split|].
  intros w0 t w1 R. destruct (reachable_uv cfg _ _ _ _ D R) as [U V]. now apply step_sid_hist.
Qed.

Theorem reachable_fwd reducers mws progs w : distinct_regs progs ->
  reachable cfg reducers mws progs w -> inv_fwd w.
Proof.
  intros D. apply reachable_ind; [intros sid pc _ (c & G & _); discriminate G|].
  intros w0 t w1 R. destruct (reachable_uv cfg _ _ _ _ D R) as [U V]. apply step_fwd; auto.
  now apply (reachable_sid_hist reducers mws progs).
Qed.

Theorem forwarded_is_owed reducers mws progs w sid c pc : distinct_regs progs ->
  reachable cfg reducers mws progs w ->
  get_chan (w_chans w) sid = Some c -> pol c = Block -> tx_alive c = true ->
  get_thread (w_threads w) reducer_tid = Some (TReducer pc) ->
  rev (fowed sid (w_hist w)) = rev (subsends sid (w_hist w)) ++ pendingf sid pc.
Proof.
  intros D R G P A GR. rewrite (proj2 (reachable_sid_hist _ _ _ _ D R sid)).
  apply (reachable_fwd _ _ _ _ D R sid pc GR). exists c. auto.
Qed.

(* C10, C14: a blocking channel loses nothing, so owed = consumed ++ queued ++ still to forward *)
Theorem consumed_is_owed reducers mws progs w sid c pc : distinct_regs progs ->
  reachable cfg reducers mws progs w ->
  get_chan (w_chans w) sid = Some c -> pol c = Block -> tx_alive c = true ->
  get_thread (w_threads w) reducer_tid = Some (TReducer pc) ->
  rev (fowed sid (w_hist w)) = rev (subrecvs sid (w_hist w)) ++ qacts c ++ pendingf sid pc.
Proof.
  intros D R G P A GR. rewrite (forwarded_is_owed _ _ _ _ _ _ _ D R G P A GR).
  rewrite (block_channel_lossless w sid c (reachable_subq cfg _ _ _ _ R) G P), <- app_assoc. reflexivity.
Qed.

End WorldForward.
