(* WorldSnap.v — which actions are notified (C03): for programs that do not register reducers or
   middlewares at run time, the snapshots taken so far are exactly the write-backs of the actions
   whose reducer chain asked to notify and which no before_dispatch hook suppressed, each with the
   state that action produced. *)
From RS Require Import Base PipelineProofs Script World WorldTactics WorldStep Hist WorldProofs WorldFold.

Section WorldSnap.
Context {State : Type}.
Variable cfg : wconfig (State := State).
Variables RS0 MS0 : list N.
Notation step := (step cfg).
Notation event := (event (State := State)).
Implicit Types w : World.world (State := State).
Implicit Types h : list event.
Notation MWS := (MWS cfg MS0).
Notation RS := (RS cfg RS0).
Notation init0 := (init0 cfg).
Notation step_fn := (step_fn cfg RS0 MS0).

Definition notify_fn (p : State) (a : aid) : bool :=
  need_dispatch MWS RS p a && negb (any_done (bd_verdicts MWS a (step_fn p a))).

(* newest first, like `writes` *)
Fixpoint noted (ws : list (aid * State)) : list (aid * State) :=
  match ws with
  | [] => []
  | (a, s) :: r => if notify_fn (prev_state init0 r) a then (a, s) :: noted r else noted r
  end.

Definition ev_snap (e : event) : list (aid * State) :=
  match e with ESnapshot a s _ => [(a, s)] | _ => [] end.
Definition snaps h := flat_map ev_snap h.

(* (a, s) is the newest write-back, the snapshots are the notifying write-backs before it, and nd is
   what the reducers asked for it *)
Definition written (WS SN : list (aid * State)) (a : aid) (s : State) (nd : bool) : Prop :=
  exists r, WS = (a, s) :: r /\ SN = noted r /\ nd = need_dispatch MWS RS (prev_state init0 r) a.

Definition spc_ok (WS SN : list (aid * State)) (cur : State) (pc : rpc (State := State)) : Prop :=
  match pc with
  | RBeforeEffect a s _ nd | RSpawn a s _ nd => written WS SN a s nd
  | RBeforeDispatch a s => written WS SN a s true
  | RSnapshot a s => exists r, WS = (a, s) :: r /\ SN = noted r /\ notify_fn (prev_state init0 r) a = true
  | _ => SN = noted WS
  end.

Definition snap_ok w : Prop :=
  forall pc, get_thread (w_threads w) reducer_tid = Some (TReducer pc) ->
             spc_ok (writes (w_hist w)) (snaps (w_hist w)) (w_state w) pc.

Lemma quiet_write : forall e, (forall a s, e <> EWrite a s) -> ev_write (State := State) e = [].
Proof. intros e H. destruct e; try reflexivity. exfalso. eapply H; reflexivity. Qed.

Lemma written_done WS SN a s : written WS SN a s false -> SN = noted WS.
Proof. intros (r & -> & -> & E). cbn [noted]. unfold notify_fn. now rewrite <- E. Qed.
Lemma spc_spawn_next WS SN cur a s effs nd : written WS SN a s nd -> spc_ok WS SN cur (spawn_next a s effs nd).
Proof. intros W. destruct effs; [|exact W]. destruct nd; [exact W|]. now apply written_done in W. Qed.

Lemma forwarding_spc w pc a s x rest n ph WS SN cur :
  forwarding w pc a s x rest n ph -> spc_ok WS SN cur pc -> SN = noted WS.
Proof. now intros [(-> & _)| ->]. Qed.
Lemma clearing_spc pc sid rest ph WS SN cur : clearing_iter pc sid rest ph -> spc_ok WS SN cur pc -> SN = noted WS.
Proof. now intros [(x & -> & _)| ->]. Qed.

Theorem step_snap w t w' : inv_fold cfg RS0 MS0 w -> snap_ok w -> step w t = Some w' -> snap_ok w'.
Proof.
  intros ((_ & M & ST & CH) & T2) SO H pc' G'. unfold snap_ok, writes, snaps in *.
  pose proof (fun NR => step_keeps_reducer cfg w t w' _ _ H NR G') as RK.
  step_rules H Hh; rewrite Hh; clear Hh.
  (* clients and subscriber threads *)
  all: try (specialize (RK ltac:(congruence)); rewrite !flat_map_quiet by auto with evs; exact (SO _ RK)).
  (* the reducer; outside the window between a write-back and its snapshot (`spc_ok`) its new pc may
     depend on a flag or on what is left of a list *)
  all: clear RK; simp_step; rewrite get_put_same in G'; injection G' as <-.
  all: pose proof (SO _ TH) as S; pose proof (T2 _ TH) as F; clear SO T2.
  all: try (rewrite !flat_map_quiet by auto with evs;
            first [apply spc_spawn_next; exact S
                  |autounfold with next_pc; repeat break_goal_match; cbn [spc_ok]; eauto using forwarding_spc, clearing_spc]; fail).
  - (* RS_write: what the reducers asked is known since they ran (`pc_fold`) *)
    exists (flat_map ev_write (w_hist w)). rewrite <- ST. split; [reflexivity|split; [exact S|apply F]].
  - (* RS_spawn_none: `spawn_next a s [] nd` has computed to an `if`, which the generic line does not match *) apply (spc_spawn_next _ _ _ a s []). exact S.
  - (* RS_before_dispatch: the hooks decide whether the action is notified *)
    rewrite !flat_map_quiet by auto with evs. destruct S as (r & EW & ES & EN).
    rewrite EW in CH. destruct CH as [SV _].
    subst vs. unfold mws_of. rewrite M.
    assert (NF : notify_fn (prev_state init0 r) a = negb (any_done (bd_verdicts MWS a s))).
    { unfold notify_fn. now rewrite <- EN, <- SV. }
    fold MWS. rewrite <- NF.
    destruct (notify_fn _ a) eqn:N; cbn [spc_ok].
    + exists r. auto.
    + rewrite EW. cbn [noted]. now rewrite N.
  - (* RS_snapshot *)
    destruct S as (r & EW & ES & N). cbn [rev app flat_map ev_write ev_snap]. rewrite EW, ES.
    unfold next_notify. destruct (w_subs w); cbn [spc_ok noted]; now rewrite N.
Qed.

Theorem reachable_snap progs w : Forall (Forall static_call) progs ->
  reachable cfg RS0 MS0 progs w -> snap_ok w.
Proof.
  intros SP. apply reachable_ind; [|intros w0 t w1 R S ST; eapply step_snap; eauto using reachable_fold].
  intros pc G. now apply init_reducer_pc in G as ->.
Qed.

(* between an action's write-back and its snapshot *)
Definition in_window (pc : rpc (State := State)) : Prop :=
  match pc with
  | RBeforeEffect _ _ _ _ | RSpawn _ _ _ _ | RBeforeDispatch _ _ | RSnapshot _ _ => True
  | _ => False
  end.

(* C03 (the bound on the programs is not used) *)
Theorem snapshots_are_notifying progs w pc : (length progs <= 100)%nat ->
  Forall (Forall static_call) progs -> reachable cfg RS0 MS0 progs w ->
  get_thread (w_threads w) reducer_tid = Some (TReducer pc) -> ~ in_window pc ->
  snaps (w_hist w) = noted (writes (w_hist w)).
Proof.
  intros _ SP R G NW. pose proof (reachable_snap progs w SP R _ G) as S.
  destruct pc; cbn [spc_ok in_window] in *; try exact S; try (now destruct S); exfalso; apply NW; exact I.
Qed.
End WorldSnap.
