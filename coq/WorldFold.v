(* WorldFold.v — the state is the sequential fold of the per-action pipeline over the actions the
   reducer has taken (C01), for programs that do not register reducers or middlewares at run time:
   the registries are then constant, and the invariant of WorldFoldDyn.v (any program) says this. *)
From RS Require Import Base PipelineProofs Script World WorldStep Hist WorldProofs WorldInv WorldQueue WorldStop WorldFoldDyn.

Section WorldFold.
Context {State : Type}.
Variable cfg : wconfig (State := State).
Variables RS0 MS0 : list N.      (* the registries, fixed at build time *)
Implicit Types w : World.world (State := State).
Implicit Types h : list (event (State := State)).

Definition MWS := map (cfg_mw cfg) MS0.
Definition RS := map (cfg_reducer cfg) RS0.
Definition init0 := cfg_init cfg.    (* `init` of WorldInv.v *)

Definition step_fn (s : State) (a : aid) : State := post_state MWS RS s a.

Fixpoint chain_ok (ws : list (aid * State)) : Prop :=
  match ws with
  | [] => True
  | (a, s) :: r => s = step_fn (prev_state init0 r) a /\ chain_ok r
  end.

Definition static_call (c : call) : Prop :=
  match c with CAddReducer _ | CAddMiddleware _ => False | _ => True end.

(* `pc_dyn` for the registries as built *)
Definition pc_fold (cur : State) (pc : rpc (State := State)) : Prop :=
  match pc with
  | RReduce a go => go = negb (vetoed MWS a cur)
  | RWrite a s _ nd => s = step_fn cur a /\ nd = need_dispatch MWS RS cur a
  | _ => True
  end.

Definition red_ok w : Prop :=
  forall pc, get_thread (w_threads w) reducer_tid = Some (TReducer pc) ->
             deqs (w_hist w) = taking pc ++ map fst (writes (w_hist w)) /\ pc_fold (w_state w) pc.

Definition fold_core w : Prop :=
  w_reducers w = RS0 /\ w_mws w = MS0 /\
  w_state w = prev_state init0 (writes (w_hist w)) /\ chain_ok (writes (w_hist w)).

Definition inv_fold w : Prop := fold_core w /\ red_ok w.

Lemma static_regs progs w : Forall (Forall static_call) progs -> reachable cfg RS0 MS0 progs w ->
  w_reducers w = RS0 /\ w_mws w = MS0.
Proof.
  intros SP. revert w. apply reachable_ind; [now split|]. intros w0 t w1 Re E H.
  pose proof (reachable_progs cfg (fun _ => static_call) _ _ _ w0 (fun _ _ _ => I) (fun _ => I) SP Re) as T. step_cases H; try exact E.
  - (* CS_add_reducer: not in a static program *) subst prog. destruct (Forall_inv (T _ _ TH)).
  - (* CS_add_middleware *) subst prog. destruct (Forall_inv (T _ _ TH)).
Qed.
Lemma no_adds (l x : list N) : l = l ++ rev x -> x = [].
Proof. intros E. apply (f_equal (@length _)) in E. rewrite app_length, rev_length in E. destruct x; [reflexivity|cbn in E; lia]. Qed.
Lemma chain_static h : added_m h = [] -> added_r h = [] -> chain_dyn cfg RS0 MS0 h -> chain_ok (writes h).
Proof.
  induction h as [|e r IH]; [auto|]. cbn [added_m added_r flat_map chain_dyn]. intros Am Ar [W C].
  apply app_eq_nil in Am as [_ Am], Ar as [_ Ar]. specialize (IH Am Ar C). destruct e; try exact IH.
  destruct W as (MS & RS1 & B1 & B2 & ->). rewrite (between_static _ _ _ _ Am B1), (between_static _ _ _ _ Ar B2).
  now split.
Qed.
Lemma pc_static h cur pc : added_m h = [] -> added_r h = [] -> pc_dyn cfg RS0 MS0 h cur pc -> pc_fold cur pc.
Proof.
  intros Am Ar. destruct pc; auto.
  - intros (MS & B & ->). now rewrite (between_static _ _ _ _ Am B).
  - intros (MS & RS1 & B1 & B2 & -> & ->). now rewrite (between_static _ _ _ _ Am B1), (between_static _ _ _ _ Ar B2).
Qed.

Theorem reachable_fold progs w : Forall (Forall static_call) progs ->
  reachable cfg RS0 MS0 progs w -> inv_fold w.
Proof.
  intros SP Re. destruct (static_regs progs w SP Re) as [ER EM].
  destruct (reachable_regs cfg RS0 MS0 progs w Re) as [M R]. destruct (reachable_dyn cfg RS0 MS0 progs w Re) as [CH PC].
  rewrite EM in M. rewrite ER in R. apply no_adds in M, R.
  split; [|intros pc G; destruct (PC pc G) as [T C]; split; [exact T|exact (pc_static _ _ _ M R C)]].
  repeat split; [exact ER|exact EM|apply (reachable_state cfg _ _ _ _ Re)|now apply chain_static].
Qed.

Fixpoint fold_states (s : State) (l : list aid) : list State :=
  match l with [] => [] | a :: r => step_fn s a :: fold_states (step_fn s a) r end.

Lemma fold_states_snoc s l a :
  fold_states s (l ++ [a]) = fold_states s l ++ [step_fn (fold_left step_fn l s) a].
Proof. revert s. induction l as [|b l IH]; intros s; cbn; [reflexivity|now rewrite IH]. Qed.

(* C01; the induction carries along that the last state written is the fold over all actions *)
Lemma chain_ok_fold : forall ws, chain_ok ws ->
  map snd (rev ws) = fold_states init0 (map fst (rev ws)).
Proof.
  intros ws C.
  enough (map snd (rev ws) = fold_states init0 (map fst (rev ws)) /\
          prev_state init0 ws = fold_left step_fn (map fst (rev ws)) init0) by tauto.
  induction ws as [|[a s] r IH]; [now split|]. destruct C as [-> C]. destruct (IH C) as [IH1 IH2].
  cbn [rev]. rewrite !map_app. cbn [map fst snd]. rewrite fold_states_snoc, fold_left_app, <- IH1, <- IH2. now split.
Qed.

(* C01: the action in progress is taken and not yet written *)
Lemma taken_vs_written w : inv_fold w -> inv_tids w ->
  let ws := rev (writes (w_hist w)) in
  rev (deqs (w_hist w)) = map fst ws \/ exists a, rev (deqs (w_hist w)) = map fst ws ++ [a].
Proof.
  intros [_ RO] [[pc G] _]. destruct (RO pc G) as [T _]. cbn zeta. rewrite map_rev, T.
  destruct pc; cbn [taking rev app]; eauto.
Qed.

End WorldFold.
