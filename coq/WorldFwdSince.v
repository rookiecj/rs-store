(* WorldFwdSince.v — for programs whose registration calls carry pairwise distinct identifiers a
   subscription channel is created once, so "forwarded since the channel was created" (subsends,
   the notion of C10_stream / C14_stream) and "ever forwarded to that identifier" (fwd, the notion
   of C04_forwarding_is_final) coincide; hence the stream an iterator or channeled subscriber can
   still receive is final once the reducer has left its loop. *)
From RS Require Import World WorldProofs WorldSubs WorldEffects WorldSids WorldForward WorldFwdFinal.

Section WorldFwdSince.
Context {State : Type}.
Variable cfg : wconfig (State := State).
Implicit Types w : World.world (State := State).

(* C10 "nothing is delivered afterwards", C14 "after the store is stopped it yields the remaining
   pairs" *)
Theorem stream_is_final reducers mws progs w sched w' sid : (length progs <= 100)%nat -> distinct_regs progs ->
  reachable cfg reducers mws progs w -> releasing w -> run cfg w sched = Some w' ->
  subsends sid (w_hist w') = subsends sid (w_hist w).
Proof.
  intros L D R RL H.
  rewrite (proj2 (reachable_sid_hist cfg _ _ _ _ D R sid)).
  rewrite (proj2 (reachable_sid_hist cfg _ _ _ _ D (reachable_run cfg _ _ _ _ _ _ R H) sid)).
  exact (proj2 (forwarded_is_final cfg sched w w' (reachable_fresh cfg reducers mws progs w L R) RL H) sid).
Qed.

End WorldFwdSince.
