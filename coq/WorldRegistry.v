(* WorldRegistry.v — the subscriber registry and the steps of unsubscribe (pure parts of C09),
   the creation of effect workers (pure parts of C11). *)
From RS Require Import Base Pipeline World.

Section WorldRegistry.
Context {State : Type}.
Implicit Types w : World.world (State := State).

Lemma find_after_remove (l : list subentry) sid : find_sub (remove_sub l sid) sid = None.
Proof.
  induction l as [|x r IH]; [reflexivity|]. cbn.
  destruct (N.eqb (se_id x) sid) eqn:E; cbn; [exact IH|]. now rewrite E.
Qed.

Lemma find_other_after_remove (l : list subentry) sid sid' : sid' <> sid ->
  find_sub (remove_sub l sid) sid' = find_sub l sid'.
Proof.
  intros Hne. induction l as [|x r IH]; [reflexivity|]. cbn.
  destruct (N.eqb_spec (se_id x) sid) as [E|E]; cbn.
  - destruct (N.eqb_spec (se_id x) sid'); [congruence|exact IH].
  - destruct (N.eqb (se_id x) sid'); [reflexivity|exact IH].
Qed.

Lemma remove_keeps_order (l : list subentry) sid : subseq (remove_sub l sid) l.
Proof.
  induction l as [|x r IH]; [constructor|]. cbn.
  destruct (negb (N.eqb (se_id x) sid)); [apply subseq_take|apply subseq_skip]; exact IH.
Qed.

Lemma remove_twice (l : list subentry) sid : remove_sub (remove_sub l sid) sid = remove_sub l sid.
Proof.
  unfold remove_sub. induction l as [|x r IH]; [reflexivity|]. cbn.
  destruct (N.eqb (se_id x) sid) eqn:E; cbn; [exact IH|]. rewrite E. now rewrite IH.
Qed.

(* C09: unsubscribe() of something that is not registered (a second unsubscribe, say) only returns *)
Lemma unsubscribe_unregistered w t r sid l :
  subs_free w = true -> find_sub (w_subs w) sid = None ->
  step_client w t r (CUnsubscribe sid :: l) (PUnsubLock sid) =
    Some (emit (set_thread w t (TClient r l PIdle)) (ERet t (CUnsubscribe sid) RUnit)).
Proof. intros F N. unfold step_client. rewrite F, N. reflexivity. Qed.

(* C09: a registered direct subscriber is removed and gets one on_unsubscribe, in the caller's
   context, before the call returns *)
Lemma unsubscribe_direct w t r sid l :
  subs_free w = true -> find_sub (w_subs w) sid = Some (mkSub sid SKDirect) ->
  step_client w t r (CUnsubscribe sid :: l) (PUnsubLock sid) =
    Some (emit (set_thread (emit (set_subs w (remove_sub (w_subs w) sid)) (ECb (XThread t) (CbOnUnsub sid)))
                           t (TClient r l PIdle))
               (ERet t (CUnsubscribe sid) RUnit)).
Proof. intros F N. unfold step_client. rewrite F, N. reflexivity. Qed.

(* C11: an effect handed to the pool becomes exactly one new worker whose first step runs it *)
Lemma spawn_creates_one_worker w k prog vis :
  w_threads (spawn_worker w k prog vis) =
    put_thread (w_threads w) (w_next_tid w) (TClient (Worker k) prog (PTaskStart k vis)) /\
  w_next_tid (spawn_worker w k prog vis) = (w_next_tid w + 2)%N.
Proof. split; reflexivity. Qed.

Lemma worker_start_runs_effect w t k k' prog :
  step_client w t (Worker k') prog (PTaskStart k true) =
    Some (set_thread (emit w (ECb (XThread t) (CbEffectRun k))) t (TClient (Worker k') prog PIdle)).
Proof. reflexivity. Qed.

End WorldRegistry.
