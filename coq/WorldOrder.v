(* WorldOrder.v — real-time order of dispatches (C02): the enqueue of a dispatch lies between its
   invocation and its return. *)
From RS Require Import Base Channel Script World WorldStep Hist WorldProofs WorldQueue.

Section WorldOrder.
Context {State : Type}.
Variable cfg : wconfig (State := State).
Notation step := (step cfg).
Notation event := (event (State := State)).
Notation thread := (thread (State := State)).
Implicit Types w : World.world (State := State).
Implicit Types h : list event.

(* C02_enqueue_between_invoke_and_return is the invariant itself: wherever an enqueue stands in the
   history, the next newer event is the return of a dispatch of that action (the two belong to
   one step) and an older one is the invocation of such a dispatch. In particular an enqueue is
   never the newest event. *)
Definition adj h : Prop := forall l1 a l3, h = l1 ++ EEnq a :: l3 ->
  exists l1' t e r, l1 = l1' ++ [ERet t (CDispatch e a) r].

Definition is_inv_of (b : aid) (e : event) : bool :=
  match e with EInv _ (CDispatch _ b') => N.eqb b' b | _ => false end.
Definition enq_inv h : Prop := forall l1 b l3, h = l1 ++ EEnq b :: l3 -> existsb (is_inv_of b) l3 = true.

Definition invoked_ok h (th : thread) : Prop :=
  match th with
  | TClient _ _ (PDispatchTx _ a) | TClient _ _ (PSending _ a _) => existsb (is_inv_of a) h = true
  | _ => True
  end.

Definition noenq (e : event) : Prop := match e with EEnq _ => False | _ => True end.

(* below newer events that are no enqueue, the enqueues stand where they stood *)
Lemma order_cons e h : noenq e -> adj h /\ enq_inv h -> adj (e :: h) /\ enq_inv (e :: h).
Proof.
  intros Q [A B]. split; intros [|y l1] a l3 E; injection E as -> E; try contradiction.
  - destruct (A _ _ _ E) as (l1' & t & e0 & r & ->). now exists (y :: l1'), t, e0, r.
  - exact (B _ _ _ E).
Qed.
Lemma order_quiet l h : Forall noenq l -> adj h /\ enq_inv h -> adj (rev l ++ h) /\ enq_inv (rev l ++ h).
Proof. intros Q AB. apply Forall_rev in Q. induction Q; [exact AB|now apply order_cons]. Qed.
(* an enqueue with the return of its dispatch above it *)
Lemma order_enq t e a res h : existsb (is_inv_of a) h = true -> adj h /\ enq_inv h ->
  adj (ERet t (CDispatch e a) res :: EEnq a :: h) /\ enq_inv (ERet t (CDispatch e a) res :: EEnq a :: h).
Proof.
  intros V [A B]. split; intros [|y [|z l1]] b l3 E; try discriminate E.
  - injection E as <- <- _. now exists [], t, e, res.
  - injection E as <- <- E. destruct (A _ _ _ E) as (l1' & t0 & e0 & r & ->).
    now exists (ERet t (CDispatch e a) res :: EEnq a :: l1'), t0, e0, r.
  - now injection E as _ <- <-.
  - injection E as _ _ E. exact (B _ _ _ E).
Qed.
Lemma inv_of_mono b l h : existsb (is_inv_of b) h = true -> existsb (is_inv_of b) (l ++ h) = true.
Proof. intros H. rewrite existsb_app, H. apply orb_true_r. Qed.

Definition enq_of (x : item aid) (sr : sresult) : list event :=
  match x, sr with IAct a, SDone true => [EEnq a] | _, _ => [] end.
Lemma dq_events_enq x sr dr : exists l, Forall noenq l /\ dq_events x sr dr = l ++ enq_of x sr.
Proof.
  assert (M : forall f : aid -> event, (forall a, noenq (f a)) -> Forall noenq (map f dr)).
  { intros f Q. induction dr; constructor; auto. }
  unfold dq_events. destruct x as [a|], sr as [ph|[]];
    (eexists; split; [|try reflexivity; symmetry; apply app_nil_r]); auto 6 with evs.
Qed.
Lemma dq_events_noenq x sr dr : enq_of x sr = [] -> Forall noenq (dq_events x sr dr).
Proof. intros E. destruct (dq_events_enq x sr dr) as (l & Q & ->). rewrite E, app_nil_r. exact Q. Qed.

Definition inv_order w : Prop :=
  adj (w_hist w) /\ enq_inv (w_hist w) /\ threads_all in_call (w_threads w) /\
  threads_all (invoked_ok (w_hist w)) (w_threads w).

Lemma invoked_mono l h th : invoked_ok h th -> invoked_ok (l ++ h) th.
Proof.
  destruct th as [r p pc| |]; auto. destruct pc; auto; apply inv_of_mono.
Qed.
Lemma invoked_mono_cons e h th : invoked_ok h th -> invoked_ok (e :: h) th.
Proof. apply (invoked_mono [e]). Qed.
Lemma threads_invoked_mono l h tbl : threads_all (invoked_ok h) tbl -> threads_all (invoked_ok (l ++ h)) tbl.
Proof. intros H t th G. apply invoked_mono. eapply H; eauto. Qed.
Lemma invoked_ok_if h r (b : bool) p p' pc pc' :
  invoked_ok h (TClient r p pc) -> invoked_ok h (TClient r p' pc') ->
  invoked_ok h (TClient r (if b then p else p') (if b then pc else pc')).
Proof. now destruct b. Qed.

Lemma dispatching_invoked w pc e a ph h r prog :
  dispatching w pc e a ph -> invoked_ok h (TClient r prog pc) -> existsb (is_inv_of a) h = true.
Proof. now intros [(-> & _)| ->]. Qed.

Theorem step_order w t w' : inv_order w -> step w t = Some w' -> inv_order w'.
Proof.
  intros (A & B & D & V) H.
  enough ((adj (w_hist w') /\ enq_inv (w_hist w')) /\ threads_all (invoked_ok (w_hist w')) (w_threads w'))
    as [[A' B'] V'] by (repeat split; eauto using step_in_call).
  step_rules H Hh; rewrite Hh; clear Hh; simp_step.
  (* no enqueue, and the thread is not inside a dispatch afterwards *)
  all: try (split; [apply order_quiet; [auto 7 using dq_events_noenq with evs|now split]
                   |repeat apply threads_all_put;
                    [apply threads_invoked_mono, V|first [exact I|apply invoked_ok_if; exact I]..]]; fail).
  - (* CS_invoke *)
    split; [apply order_quiet; [auto with evs|now split]|].
    apply threads_all_put; [apply threads_invoked_mono, V|]. cbn [rev app].
    destruct c; cbn [invoke_pc invoked_ok]; try exact I; try (now destruct (memN _ _)).
    cbn. now rewrite N.eqb_refl.
  - (* CS_send *)
    split; [apply order_quiet; [now apply dq_events_noenq|now split]|].
    apply threads_all_put; [apply threads_invoked_mono, V|]. apply inv_of_mono.
    eapply dispatching_invoked; [exact AT|exact (V _ _ TH)].
  - (* CS_sent: the enqueue, if there is one, and the return of its dispatch are the two newest events *)
    split; [|apply threads_all_put; [apply threads_invoked_mono, V|exact I]].
    edestruct (dq_events_enq (IAct a) (SDone ok)) as (l & Q & E). rewrite E.
    destruct (order_quiet l _ Q (conj A B)) as [A' B'].
    destruct (dispatching_head _ _ _ _ _ _ _ AT (D _ _ TH)) as [rest ->].
    rewrite !rev_app_distr. destruct ok; cbn [ret_events enq_of rev app].
    + apply order_enq; [|now split]. apply inv_of_mono.
      eapply dispatching_invoked; [exact AT|exact (V _ _ TH)].
    + now apply (order_quiet [_]); [auto with evs|].
Qed.

Theorem reachable_order reducers mws progs w :
  reachable cfg reducers mws progs w -> inv_order w.
Proof.
  apply reachable_ind; [|intros; eapply step_order; eauto].
  split; [|split; [|split]]; try (apply init_threads_all; intros; first [exact I|now left]).
  1,2: now intros [|? ?] ? ? E.
Qed.

Definition older (x y : event) h : Prop := exists l1 l2 l3, h = l1 ++ y :: l2 ++ x :: l3.

(* the two halves, as Props/C02.v asks for them *)
Lemma adj_positions : forall h l1 a l3, adj h -> h = l1 ++ EEnq a :: l3 ->
  exists l1' t e r, l1 = l1' ++ [ERet t (CDispatch e a) r].
Proof. intros h l1 a l3 A. apply A. Qed.

Lemma enq_inv_positions : forall h l1 b l3, enq_inv h -> h = l1 ++ EEnq b :: l3 ->
  existsb (is_inv_of b) l3 = true.
Proof. intros h l1 b l3 B. apply B. Qed.

End WorldOrder.
