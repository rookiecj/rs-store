(* WorldQueue.v — invariants over the thread table (`threads_all`); `in_call`: a thread inside a call
   has that call at the head of its program; the dispatch queue (`inv_q_lists`): conservation, FIFO,
   losslessness under BlockOnFull (C01 exactly-once, C02 order of survivors, C05 lossless, C06
   conservation). *)
From Coq Require Import Permutation.
From RS Require Import Base Channel ChannelProofs Script World WorldTactics WorldStep Hist WorldProofs.

Section WorldQueue.
Context {State : Type}.
Variable cfg : wconfig (State := State).
Notation step := (step cfg).
Notation event := (event (State := State)).
Notation thread := (thread (State := State)).
Implicit Types w : World.world (State := State).

Lemma subseq_refl {A} (l : list A) : subseq l l.
Proof. induction l; [constructor|apply subseq_take; auto]. Qed.
Lemma subseq_nil_l {A} (l : list A) : subseq [] l.
Proof. induction l; [constructor|apply subseq_skip; auto]. Qed.
Lemma subseq_app {A} (a b c d : list A) : subseq a b -> subseq c d -> subseq (a ++ c) (b ++ d).
Proof.
  induction 1; cbn; intros; auto; [apply subseq_skip|apply subseq_take]; auto.
Qed.
Lemma subseq_remove_mid {A} (l1 l2 l : list A) x : subseq (l1 ++ x :: l2) l -> subseq (l1 ++ l2) l.
Proof.
  remember (l1 ++ x :: l2) as m eqn:E. intros S. revert l1 E.
  induction S as [|y m l S IH|y m l S IH]; intros l1 E.
  - destruct l1; discriminate.
  - constructor. apply IH. exact E.
  - destruct l1 as [|z l1]; cbn in E.
    + injection E as -> ->. constructor. exact S.
    + injection E as -> ->. cbn. apply subseq_take. apply IH. reflexivity.
Qed.
Lemma subseq_app_r {A} (l r s : list A) : subseq (l ++ r) s -> subseq r s.
Proof. induction l as [|x l IH]; [auto|]. intros S. apply IH. exact (subseq_remove_mid [] _ _ x S). Qed.
Lemma subseq_length {A} (l1 l2 : list A) : subseq l1 l2 -> length l1 <= length l2.
Proof. induction 1; cbn; lia. Qed.
Lemma subseq_same_length {A} (l1 l2 : list A) : subseq l1 l2 -> length l1 = length l2 -> l1 = l2.
Proof.
  induction 1 as [|x l1 l2 S IH|x l1 l2 S IH]; cbn; intros L; auto.
  - apply subseq_length in S. lia.
  - f_equal. apply IH. lia.
Qed.
Lemma acts_app {A} (l1 l2 : list (item A)) : acts (l1 ++ l2) = acts l1 ++ acts l2.
Proof. induction l1 as [|[a|] r IH]; cbn; auto. now rewrite IH. Qed.

Definition threads_all (P : thread -> Prop) (l : list (N * thread)) : Prop :=
  forall t th, get_thread l t = Some th -> P th.

Lemma threads_all_put P l t th : threads_all P l -> P th -> threads_all P (put_thread l t th).
Proof. intros H Hp t0 th0 G. apply get_put_inv in G. destruct G as [[_ ->]|[_ G]]; eauto. Qed.

Lemma threads_all_impl (P Q : thread -> Prop) l : threads_all P l -> (forall th, P th -> Q th) -> threads_all Q l.
Proof. intros H PQ t th G. exact (PQ _ (H _ _ G)). Qed.

Lemma init_threads_all (P : thread -> Prop) reducers mws progs :
  P (TReducer RRecv) -> (forall p, In p progs -> P (TClient Client p PIdle)) ->
  threads_all P (w_threads (init_world cfg reducers mws progs)).
Proof. intros R C t th G. apply init_threads in G. destruct G as [(p & I & -> & _)|[_ ->]]; auto. Qed.

Theorem reachable_progs (Q : role -> call -> Prop) reducers mws progs w :
  (forall k e a, Q (Worker k) (CDispatch e a)) -> (forall k, Q (Worker k) CPanic) ->
  Forall (Forall (Q Client)) progs ->
  reachable cfg reducers mws progs w -> threads_all (progs_all Q) (w_threads w).
Proof.
  intros Qd Qp FP. apply (reachable_ind cfg _ _ _ (fun w => threads_all _ (w_threads w))).
  - apply init_threads_all; [exact I|exact (proj1 (Forall_forall _ _) FP)].
  - intros w0 t w1 _ T H. exact (step_progs cfg Q Qd Qp _ _ _ H T).
Qed.

(* `within e pc`: pc lies inside the call entered at e (`invoke_pc` says where a call is entered) *)
Definition within (e pc : cpc) : Prop :=
  match pc with
  | PSending en a _ => e = PDispatchTx en a
  | PCloseSending stop _ => e = PCloseTx stop
  | PStopTake | PStopJoin => e = PCloseTx true
  | PUnsubLock s | PUnsubCtx s | PUnsubJoin s | PUnsubIterSend s _ => e = PUnsubLock s \/ e = PNextRecv s
  | _ => e = pc
  end.
(* the pc fits the program: idle; at the start of a task (one that no user code sees start invokes
   its first call in that step, so it has one); or inside the call at the head *)
Definition in_call (th : thread) : Prop :=
  match th with
  | TClient _ prog pc => pc = PIdle \/ (exists k v, pc = PTaskStart k v /\ (v = false -> prog <> [])) \/
      exists c rest done, prog = c :: rest /\ within (invoke_pc done c) pc
  | _ => True
  end.
Definition busy (pc : cpc) : Prop := match pc with PIdle | PTaskStart _ _ => False | _ => True end.

Lemma within_entry done c : within (invoke_pc done c) (invoke_pc done c).
Proof. destruct c; cbn; try destruct (memN _ _); cbn; auto. Qed.
Lemma in_call_next r prog pc pc' : in_call (TClient r prog pc) -> busy pc ->
  (forall e, within e pc -> within e pc') -> in_call (TClient r prog pc').
Proof.
  intros [->|[(k & v & -> & _)|(c & rest & done & -> & W)]] B N; try contradiction.
  right. right. exists c, rest, done. auto.
Qed.

Theorem step_in_call w t w' : threads_all in_call (w_threads w) -> step w t = Some w' ->
  threads_all in_call (w_threads w').
Proof.
  intros T H. step_cases H; try open_at AT; simp_step.
  (* the entry written is the reducer's or a subscriber thread's (I), or a client back at PIdle (left) *)
  all: repeat apply threads_all_put; try exact T; try exact I; try destruct stop; try (now left).
  (* going on inside a call *)
  all: try (eapply in_call_next; [exact (T _ _ TH)|exact I|cbn [within]; tauto]; fail).
  - (* CS_invoke *) right. right. exists c, rest, (w_iter_done w). split; [exact PROG|apply within_entry].
  - (* CS_subscribed *) right. right. exists (CSubscribed sid n p), rest, []. now split.
  - (* CS_iter *) right. right. exists (CIter sid n p), rest, []. now split.
  - (* CS_task *) right. left. do 2 eexists. split; [reflexivity|discriminate].
  - (* RS_spawn: a task that no user code sees start has a body *)
    right. left. do 2 eexists. split; [reflexivity|]. unfold eff_visible, prog_of_eff. destruct (e_kind e); discriminate.
Qed.
Theorem reachable_in_call reducers mws progs w : reachable cfg reducers mws progs w -> threads_all in_call (w_threads w).
Proof.
  revert w. apply reachable_ind; [apply init_threads_all; [exact I|now left]|intros; eapply step_in_call; eauto].
Qed.

Lemma in_call_task r prog k : in_call (TClient r prog (PTaskStart k false)) -> prog <> [].
Proof. intros [E|[(? & ? & [= <- <-] & N)|(? & ? & ? & -> & _)]]; [discriminate E|now apply N|discriminate]. Qed.
Lemma invoke_dispatch done c e a : invoke_pc done c = PDispatchTx e a -> c = CDispatch e a.
Proof. destruct c; cbn; try destruct (memN _ _); congruence. Qed.
Lemma in_call_disp r prog pc e a : in_call (TClient r prog pc) ->
  pc = PDispatchTx e a \/ (exists ph, pc = PSending e a ph) -> exists l, prog = CDispatch e a :: l.
Proof.
  intros [->|[(k & v & -> & _)|(c & rest & done & -> & W)]] E; [destruct E as [E|[? E]]; discriminate E..|].
  destruct E as [->|[ph ->]]; apply invoke_dispatch in W as ->; eauto.
Qed.
Lemma dispatching_head w pc e a ph r prog :
  dispatching w pc e a ph -> in_call (TClient r prog pc) -> exists l, prog = CDispatch e a :: l.
Proof. intros AT X. apply (in_call_disp _ _ _ _ _ X). destruct AT as [(-> & _)| ->]; eauto. Qed.

(* the phase a sender on a queue is parked in fits the policy *)
Definition ph_ok (p : policy) (ph : sphase) : Prop :=
  match p with
  | Block => ph = SBlockWait
  | DropOldest => ph = SDo2 \/ ph = SDo3
  | DropLatest => False
  end.

Lemma send_phase_next_ok (c : chan aid) x ph c' ph' dr :
  (ph = SStart \/ ph_ok (pol c) ph) -> send_phase c x ph = Some (c', SMore ph', dr) -> ph_ok (pol c) ph'.
Proof.
  destruct ph; cbn.
  - intros _. destruct (pol c); [|destruct (try_send c x)..]; intros H; inversion H; cbn; auto.
  - unfold send_block. destruct (try_send c x); discriminate.
  - intros [E|Hok]; [discriminate|].
    destruct (pol c); cbn; try discriminate; try contradiction.
    destruct (try_recv c). intros H; inversion H. auto.
  - destruct (try_send c x); discriminate.
Qed.

(* two readings of the events of a send that no proof below goes through *)
Lemma proj_map_const {X} (f : event -> list X) (g : aid -> event) l :
  (forall a, f (g a) = []) -> flat_map f (rev (map g l)) = [].
Proof. intros H. apply flat_map_nil, Forall_rev, Forall_map, Forall_forall. auto. Qed.

Lemma dq_events_done_true (x : item aid) : 
  rev (dq_events (State := State) x (SDone true) []) = match x with IAct a => [EEnq a] | IExit => [EEnqExit] end.
Proof. destruct x; reflexivity. Qed.

Definition inv_q_lists w : Prop :=
  let h := w_hist w in
  let qa := rev (acts (q (w_dq w))) in
  pol (w_dq w) = cfg_pol cfg /\
  Permutation (enqs h) (qa ++ deqs h ++ drops h) /\
  subseq (qa ++ deqs h) (enqs h) /\
  (cfg_pol cfg = Block -> drops h = [] /\ rejects h = []).

Lemma send_lists w x ph dq' sr dr : send_phase (w_dq w) x ph = Some (dq', sr, dr) ->
  inv_q_lists w -> inv_q_lists (dq_sent w dq' x sr dr).
Proof.
  intros E (P & PERM & SUB & BLK). pose proof (send_phase_keeps _ _ _ _ _ _ E) as (_ & P' & _ & _).
  unfold inv_q_lists. simp_step. split; [congruence|].
  apply send_phase_contents in E. destruct E as [(Q & -> & ->)|[(old & Q & _ & -> & -> & PO)|(Q & NT & D)]].
  - (* the item was appended *)
    rewrite Q, acts_app, rev_app_distr. destruct x as [a|].
    + split; [now apply perm_skip|split; [now apply subseq_take|exact BLK]].
    + auto.
  - (* DropOldest evicted the head *)
    rewrite Q in PERM, SUB. destruct old as [b|]; cbn in *.
    + rewrite <- !app_assoc in *. cbn in *. split; [|split].
      * etransitivity; [exact PERM|].
        apply Permutation_app_head. apply Permutation_middle.
      * eapply subseq_remove_mid. exact SUB.
      * congruence.
    + auto.
  - (* the queue is unchanged *)
    rewrite Q. destruct D as [->|(-> & PL & -> & ->)].
    + assert (EV : dq_events (State := State) x sr [] = []).
      { destruct sr as [?|[|]]; [reflexivity| |reflexivity]. exfalso. now apply NT. }
      rewrite EV. auto.
    + destruct x as [a|]; (split; [exact PERM|split; [exact SUB|]]); congruence.
Qed.

Lemma dq_phase_lists w x ph w1 sr :
  dq_phase w x ph = Some (w1, sr) -> (ph = SStart \/ ph_ok (cfg_pol cfg) ph) -> inv_q_lists w ->
  inv_q_lists w1 /\ w_threads w1 = w_threads w /\ (forall ph', sr = SMore ph' -> ph_ok (cfg_pol cfg) ph').
Proof.
  intros H Hph Q. apply dq_phase_inv in H as (dq' & dr & E & ->).
  split; [exact (send_lists _ _ _ _ _ _ E Q)|split; [reflexivity|]].
  intros ph' ->. destruct Q as [P _]. rewrite <- P in *. exact (send_phase_next_ok _ _ _ _ _ _ Hph E).
Qed.

Definition qquiet (e : event) : Prop :=
  match e with EEnq _ | EDeq _ | EDrop _ | EReject _ => False | _ => True end.

Lemma q_lists_frame w w' evs : inv_q_lists w -> q (w_dq w') = q (w_dq w) -> pol (w_dq w') = pol (w_dq w) ->
  w_hist w' = rev evs ++ w_hist w -> Forall qquiet evs -> inv_q_lists w'.
Proof.
  intros I Q P Hh E. unfold inv_q_lists, enqs, deqs, drops, rejects. rewrite Q, P, Hh.
  rewrite !flat_map_quiet; [exact I|..]; (eapply Forall_impl; [|exact E]); intros [] F;
    destruct F; reflexivity.
Qed.

Lemma recv_lists w w1 x l :
  q (w_dq w) = x :: l -> w_dq w1 = set_q (w_dq w) l -> w_hist w1 = EDeq x :: w_hist w ->
  inv_q_lists w -> inv_q_lists w1.
Proof.
  intros Q D Hh (P & PERM & SUB & BLK).
  unfold inv_q_lists. rewrite D, Hh.
  rewrite Q in PERM, SUB. split; [exact P|].
  destruct x as [a|]; cbn in *; rewrite <- ?app_assoc in *; auto.
Qed.

Theorem step_queue w t w' : inv_q_lists w -> step w t = Some w' -> inv_q_lists w'.
Proof.
  intros Q H. step_rules H Hh.
  (* most rules leave the queue alone *)
  all: try (eapply q_lists_frame; [exact Q|reflexivity|reflexivity|exact Hh|auto with evs]; fail).
  (* a send; the thread is parked, or what the rule does then is quiet *)
  all: try (apply send_lists in SEND; [|exact Q]); try exact SEND.
  all: try (eapply q_lists_frame; [exact SEND|reflexivity..|auto with evs]; fail).
  - (* RS_take *) eapply recv_lists; [exact HEAD|reflexivity|reflexivity|exact Q].
Qed.

Theorem reachable_queue reducers mws progs w :
  reachable cfg reducers mws progs w -> inv_q_lists w.
Proof.
  apply reachable_ind; [|intros; eapply step_queue; eauto].
  repeat split; constructor.
Qed.

(* C01, C05: under BlockOnFull nothing is dropped or rejected, and the queue is what was enqueued
   and not yet taken, in order *)
Corollary block_lossless w : inv_q_lists w -> cfg_pol cfg = Block ->
  drops (w_hist w) = [] /\ rejects (w_hist w) = [] /\
  rev (enqs (w_hist w)) = rev (deqs (w_hist w)) ++ acts (q (w_dq w)).
Proof.
  intros (P & PERM & SUB & BLK) B. destruct (BLK B) as [D R]. split; [exact D|split; [exact R|]].
  rewrite D, app_nil_r in PERM.
  assert (E : rev (acts (q (w_dq w))) ++ deqs (w_hist w) = enqs (w_hist w)).
  { apply subseq_same_length; [exact SUB|]. symmetry. apply Permutation_length. exact PERM. }
  rewrite <- E, rev_app_distr, rev_involutive. reflexivity.
Qed.

(* C02, C06: under every policy the reducer takes a subsequence of what entered, in that order *)
Corollary taken_in_enqueue_order w : inv_q_lists w ->
  subseq (deqs (w_hist w)) (enqs (w_hist w)).
Proof.
  intros (_ & _ & SUB & _). exact (subseq_app_r _ _ _ SUB).
Qed.

End WorldQueue.

