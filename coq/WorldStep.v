(* WorldStep.v — the transition function of World.v as inference rules.
   `step` has some 320 leaves; most differ only in how `ret`, `finish_unsub` and the `after_*`
   helpers branch on the rest of the program or of the subscriber list, which no invariant cares
   about. Here a step is one of 66 rules `Step cfg w t evs w'`: `evs` are the events it appends to
   the history (oldest first), `w'` is a chain of setters over `w` with those case distinctions
   pushed into the field values, so that every field of `w'` reduces by `cbn`. `step_inv` is the
   only case analysis over all of `step` (WorldBlock.v looks at the steps that cannot happen). *)
From RS Require Import Base Channel Pipeline PipelineProofs Selector Script World WorldTactics Hist.

Section WorldStep.
Context {State : Type}.
Variable cfg : wconfig (State := State).
Notation world := (world (State := State)).
Notation event := (event (State := State)).
Notation rpc := (rpc (State := State)).
Implicit Types w : World.world (State := State).

Definition ret_events (t : N) (prog : list call) (res : result (State := State)) : list event :=
  match prog with [] => [] | c :: _ => [ERet t c res] end.
Definition returned w t r prog res : world :=
  emits (set_thread w t (TClient r (tl prog) PIdle)) (ret_events t prog res).

Definition ends_iter (prog : list call) : bool :=
  match prog with CNext _ :: _ | CDrain _ :: _ | CDropIter _ :: _ => true | _ => false end.
Definition unsub_result (prog : list call) : result (State := State) :=
  match prog with CNext _ :: _ | CDrain _ :: _ => RItem None | _ => RUnit end.
Definition unsubscribed w t r prog sid : world :=
  returned (set_iter_done w (if ends_iter prog then sid :: w_iter_done w else w_iter_done w))
           t r prog (unsub_result prog).

Definition closed w t r prog (stop : bool) : world :=
  emits (set_thread (set_dq w (disconnect (w_dq w))) t
                    (TClient r (if stop then prog else tl prog) (if stop then PStopTake else PIdle)))
        (EDisc :: if stop then [] else ret_events t prog RUnit).

Definition spawn_next (a : aid) (s : State) (effs : list eff) (nd : bool) : rpc :=
  match effs with [] => if nd then RBeforeDispatch a s else RRecv | _ => RSpawn a s effs nd end.
Definition next_notify (a : aid) (s : State) (rest : list subentry) (n : nat) : rpc :=
  match rest with [] => RRecv | _ => RNotify a s rest n end.
Definition next_clear (rest : list subentry) : rpc := match rest with [] => RDone | _ => RClear rest end.
Definition notified w a s (rest : list subentry) (n : nat) : world :=
  set_rpc (upd_metrics w (fun m => match rest with [] => m_add_sub_notified m (N.of_nat n) | _ => m end))
          (next_notify a s rest n).
Definition cleared w (rest : list subentry) : world :=
  set_rpc (set_subs w (match rest with [] => [] | _ => w_subs w end)) (next_clear rest).
Definition hang_up (l : list (N * chan (State * aid))) (sid : N) :=
  match get_chan l sid with Some c => put_chan l sid (disconnect c) | None => l end.

Lemma hang_up_keys l s : map fst (hang_up l s) = map fst l.
Proof. unfold hang_up. destruct (get_chan l s) eqn:G; [exact (put_chan_keys _ _ _ _ G)|reflexivity]. Qed.
Lemma chan_at_hang_up P l s sid :
  chan_at P l sid -> (forall c, P c -> P (disconnect c)) -> chan_at P (hang_up l s) sid.
Proof.
  unfold hang_up. intros H D. destruct (get_chan l s) eqn:G; [|exact H].
  apply chan_at_put; [exact H|intros ->; eauto].
Qed.
Lemma chan_at_hung_up l s : chan_at (fun c => tx_alive c = false) (hang_up l s) s.
Proof.
  unfold hang_up. intros c0 G0. destruct (get_chan l s) eqn:G; [|congruence].
  rewrite get_put_chan_same in G0. now injection G0 as <-.
Qed.
Lemma chans_all_hang_up P l sid :
  chans_all P l -> (forall c, P c -> P (disconnect c)) -> chans_all P (hang_up l sid).
Proof. intros H D s. apply chan_at_hang_up; [exact (H s)|exact D]. Qed.

Lemma Forall_ret_events (P : event -> Prop) t prog res :
  (forall c, P (ERet t c res)) -> Forall P (ret_events t prog res).
Proof. destruct prog; cbn; auto. Qed.

Lemma ret_eq w t r prog res : ret w t r prog res = returned w t r prog res.
Proof. destruct prog; reflexivity. Qed.
Lemma finish_unsub_eq w t r prog sid : finish_unsub w t r prog sid = unsubscribed w t r prog sid.
Proof. destruct prog as [|[] ?]; reflexivity. Qed.
Lemma after_close_eq w t r prog stop : after_close w t r prog stop = closed w t r prog stop.
Proof. destruct stop; [reflexivity|]. destruct prog; reflexivity. Qed.
Lemma after_notify_eq w a s rest n : after_notify w a s rest n = notified w a s rest n.
Proof. destruct rest; reflexivity. Qed.
Lemma after_clear_eq w rest : after_clear w rest = cleared w rest.
Proof. destruct rest; reflexivity. Qed.

Definition dq_sent w dq' (x : item aid) sr (dr : list aid) : world :=
  emits (upd_metrics (set_dq w dq') (fun m => m_add_dropped m (N.of_nat (length dr)))) (dq_events x sr dr).
Definition sub_sent w sid c' (x : item (State * aid)) sr (dr : list (State * aid)) : world :=
  emits (upd_metrics (set_chan w sid c') (fun m => m_add_dropped m (N.of_nat (length dr))))
        (sub_events sid x sr dr).

Lemma dq_phase_inv w x ph w1 sr : dq_phase w x ph = Some (w1, sr) ->
  exists dq' dr, send_phase (w_dq w) x ph = Some (dq', sr, dr) /\ w1 = dq_sent w dq' x sr dr.
Proof.
  unfold dq_phase. destruct (send_phase (w_dq w) x ph) as [[[dq' sr'] dr]|]; [|discriminate].
  intros H; injection H as <- <-. eauto.
Qed.
(* without a channel nothing is sent *)
Lemma sub_phase_inv w sid x ph w1 sr : sub_phase w sid x ph = Some (w1, sr) ->
  (get_chan (w_chans w) sid = None /\ w1 = w /\ sr = SDone false) \/
  exists c c' dr, get_chan (w_chans w) sid = Some c /\ send_phase c x ph = Some (c', sr, dr) /\
                  w1 = sub_sent w sid c' x sr dr.
Proof.
  unfold sub_phase. destruct (get_chan (w_chans w) sid) as [c|].
  - destruct (send_phase c x ph) as [[[c' sr'] dr]|] eqn:E; [|discriminate].
    intros H; injection H as <- <-. right. eauto 6.
  - intros H; injection H as <- <-. auto.
Qed.

(* a pool task whose start no user code observes (`PTaskStart k false`) invokes its first call in
   the step that starts it *)
Definition invoking (r : role) (pc : cpc) : Prop :=
  pc = PIdle \/ exists k k', pc = PTaskStart k false /\ r = Worker k'.
Definition invoke_pc (done : list N) (c : call) : cpc :=
  match c with
  | CDispatch e a => PDispatchTx e a
  | CClose => PCloseTx false
  | CStop | CDropStore => PCloseTx true
  | CAddSubscriber sid => PSubsAdd (mkSub sid SKDirect)
  | CSubscribeSelector sid sel => PSubsAdd (mkSub sid (SKSelector sel))
  | CSubscribed sid _ _ => PSubsAdd (mkSub sid SKChan)
  | CIter sid _ _ => PSubsAdd (mkSub sid SKIter)
  | CUnsubscribe sid => PUnsubLock sid
  | CNext sid | CDrain sid => if memN sid done then PCall else PNextRecv sid
  | CDropIter sid => if memN sid done then PCall else PUnsubLock sid
  | _ => PCall
  end.
(* invoking c only logs EInv and moves to `invoke_pc`: no channel or thread is created *)
Definition plain_call (c : call) : Prop :=
  match c with CPanic | CSubscribed _ _ _ | CIter _ _ _ => False | _ => True end.
(* the call at PCall only returns `call_result`: none of the four that also change a field *)
Definition pure_prog (prog : list call) : Prop :=
  match prog with
  | (CAddReducer _ | CAddMiddleware _ | CThunk _ _ | CTask _ _) :: _ => False
  | _ => True
  end.
Definition call_result w (prog : list call) : result (State := State) :=
  match prog with
  | CGetState :: _ => RState (w_state w)
  | CGetMetrics :: _ => RMetrics (w_metrics w)
  | (CNext _ | CDrain _) :: _ => RItem None
  | _ => RUnit
  end.
Definition task_of (c : call) : option (N * list bop) :=
  match c with CThunk k b | CTask k b => Some (k, b) | _ => None end.
Definition is_drain (prog : list call) : bool := match prog with CDrain _ :: _ => true | _ => false end.

(* a send starts at the pc that takes the lock, or goes on *)
Definition dispatching w (pc : cpc) e a ph : Prop :=
  (pc = PDispatchTx e a /\ ph = SStart /\ tx_free w = true /\ w_tx_open w = true) \/ pc = PSending e a ph.
(* a close that starts takes the sender, an unsubscribe that starts takes the iterator's entry out of
   the registry: o, l are the field values the step leaves, so that no field of w' needs AT opened *)
Definition closing w (pc : cpc) stop ph (o : bool) : Prop :=
  (pc = PCloseTx stop /\ ph = SStart /\ tx_free w = true /\ w_tx_open w = true /\ o = false) \/
  (pc = PCloseSending stop ph /\ o = w_tx_open w).
Definition releasing_iter w (pc : cpc) sid ph (l : list subentry) : Prop :=
  (pc = PUnsubLock sid /\ ph = SStart /\ subs_free w = true /\
   (exists se, find_sub (w_subs w) sid = Some se /\ se_kind se = SKIter) /\ l = remove_sub (w_subs w) sid) \/
  (pc = PUnsubIterSend sid ph /\ l = w_subs w).

Inductive CStep w (t : N) (r : role) (prog : list call) : cpc -> list event -> world -> Prop :=
| CS_panic pc rest : forall (INV : invoking r pc) (PROG : prog = CPanic :: rest),
    CStep w t r prog pc [EPanic t] (emit (set_thread w t (TClient r [] PIdle)) (EPanic t))
| CS_invoke pc c rest : forall (INV : invoking r pc) (PROG : prog = c :: rest) (PLAIN : plain_call c),
    CStep w t r prog pc [EInv t c]
          (set_thread (emit w (EInv t c)) t (TClient r prog (invoke_pc (w_iter_done w) c)))
| CS_subscribed pc sid n p rest : forall (INV : invoking r pc) (PROG : prog = CSubscribed sid n p :: rest),
    CStep w t r prog pc [EInv t (CSubscribed sid n p); ESubNew sid]
          (set_thread (set_thread (emit (set_chan (emit w (EInv t (CSubscribed sid n p))) sid (chan_new n p))
                                        (ESubNew sid))
                                  (chan_tid sid) (TChan sid false))
                      t (TClient r prog (PSubsAdd (mkSub sid SKChan))))
| CS_iter pc sid n p rest : forall (INV : invoking r pc) (PROG : prog = CIter sid n p :: rest),
    CStep w t r prog pc [EInv t (CIter sid n p); ESubNew sid]
          (set_thread (emit (set_chan (emit w (EInv t (CIter sid n p))) sid (chan_new n p)) (ESubNew sid))
                      t (TClient r prog (PSubsAdd (mkSub sid SKIter))))
| CS_task_run k k' : forall (ROLE : r = Worker k'),
    CStep w t r prog (PTaskStart k true) [ECb (XThread t) (CbEffectRun k)]
          (set_thread (emit w (ECb (XThread t) (CbEffectRun k))) t (TClient r prog PIdle))
| CS_task_client k v : forall (ROLE : r = Client),    (* unreachable: only pool tasks start here *)
    CStep w t r prog (PTaskStart k v) [] (set_thread w t (TClient r prog PIdle))
| CS_call : forall (PURE : pure_prog prog),
    CStep w t r prog PCall (ret_events t prog (call_result w prog)) (returned w t r prog (call_result w prog))
| CS_add_reducer id rest : forall (PROG : prog = CAddReducer id :: rest),
    CStep w t r prog PCall (ret_events t prog RUnit)
          (returned (set_reducers w (w_reducers w ++ [id])) t r prog RUnit)
| CS_add_middleware id rest : forall (PROG : prog = CAddMiddleware id :: rest),
    CStep w t r prog PCall (ret_events t prog RUnit) (returned (set_mws w (w_mws w ++ [id])) t r prog RUnit)
| CS_task c k body rest : forall (PROG : prog = c :: rest) (TASK : task_of c = Some (k, body)) (POOL : w_pool w = true),
    CStep w t r prog PCall (ESpawn k (w_next_tid w) :: ret_events t prog RUnit)
          (returned (spawn_worker w k (calls_of_body body) true) t r prog RUnit)
| CS_task_skipped c k body rest : forall (PROG : prog = c :: rest) (TASK : task_of c = Some (k, body)) (POOL : w_pool w = false),
    CStep w t r prog PCall (ESpawnSkipped k :: ret_events t prog RUnit)
          (returned (emit w (ESpawnSkipped k)) t r prog RUnit)
| CS_send pc e a ph dq' dr ph' : forall (AT : dispatching w pc e a ph)
    (SEND : send_phase (w_dq w) (IAct a) ph = Some (dq', SMore ph', dr)),
    CStep w t r prog pc (dq_events (IAct a) (SMore ph') dr)
          (set_thread (dq_sent w dq' (IAct a) (SMore ph') dr) t (TClient r prog (PSending e a ph')))
| CS_sent pc e a ph dq' dr ok : forall (AT : dispatching w pc e a ph)
    (SEND : send_phase (w_dq w) (IAct a) ph = Some (dq', SDone ok, dr)),
    CStep w t r prog pc (dq_events (IAct a) (SDone ok) dr ++ ret_events t prog (dispatch_result e ok))
          (returned (dq_sent w dq' (IAct a) (SDone ok) dr) t r prog (dispatch_result e ok))
| CS_send_closed e a : forall (TXFREE : tx_free w = true) (OPEN : w_tx_open w = false),
    CStep w t r prog (PDispatchTx e a) (ret_events t prog RErr)
          (returned (upd_metrics w (fun m => match e with EDispatcher => m | _ => m_add_errors m 1 end))
                    t r prog RErr)
| CS_close_send pc stop ph o dq' dr ph' : forall (AT : closing w pc stop ph o)
    (SEND : send_phase (w_dq w) IExit ph = Some (dq', SMore ph', dr)),
    CStep w t r prog pc (dq_events IExit (SMore ph') dr)
          (set_thread (dq_sent (set_tx_open w o) dq' IExit (SMore ph') dr) t (TClient r prog (PCloseSending stop ph')))
| CS_close_sent pc stop ph o dq' dr ok : forall (AT : closing w pc stop ph o)
    (SEND : send_phase (w_dq w) IExit ph = Some (dq', SDone ok, dr)),
    CStep w t r prog pc (dq_events IExit (SDone ok) dr ++ EDisc :: if stop then [] else ret_events t prog RUnit)
          (closed (dq_sent (set_tx_open w o) dq' IExit (SDone ok) dr) t r prog stop)
| CS_close_again stop : forall (TXFREE : tx_free w = true) (OPEN : w_tx_open w = false),
    CStep w t r prog (PCloseTx stop) (if stop then [] else ret_events t prog RUnit)
          (emits (set_thread w t (TClient r (if stop then prog else tl prog) (if stop then PStopTake else PIdle)))
                 (if stop then [] else ret_events t prog RUnit))
| CS_take : forall (POOL : w_pool w = true),
    CStep w t r prog PStopTake [ETakePool]
          (set_thread (emit (set_pool w false) ETakePool) t (TClient r prog PStopJoin))
| CS_take_none : forall (POOL : w_pool w = false),
    CStep w t r prog PStopTake (ret_events t prog RUnit) (returned w t r prog RUnit)
| CS_join : forall (IDLE : pool_idle w = true),
    CStep w t r prog PStopJoin (ret_events t prog RUnit) (returned w t r prog RUnit)
| CS_add se : forall (FREE : subs_free w = true),
    CStep w t r prog (PSubsAdd se) (ret_events t prog RUnit)
          (returned (set_subs w (w_subs w ++ [se])) t r prog RUnit)
| CS_unsub_absent sid : forall (FREE : subs_free w = true) (FIND : find_sub (w_subs w) sid = None),
    CStep w t r prog (PUnsubLock sid) (ret_events t prog (unsub_result prog)) (unsubscribed w t r prog sid)
| CS_unsub_direct sid se : forall (FREE : subs_free w = true) (FIND : find_sub (w_subs w) sid = Some se)
    (KIND : se_kind se = SKDirect),
    CStep w t r prog (PUnsubLock sid)
          (ECb (XThread t) (CbOnUnsub sid) :: ret_events t prog (unsub_result prog))
          (unsubscribed (emit (set_subs w (remove_sub (w_subs w) sid)) (ECb (XThread t) (CbOnUnsub sid)))
                        t r prog sid)
| CS_unsub_selector sid se sel : forall (FREE : subs_free w = true) (FIND : find_sub (w_subs w) sid = Some se)
    (KIND : se_kind se = SKSelector sel),
    CStep w t r prog (PUnsubLock sid) (ret_events t prog (unsub_result prog))
          (unsubscribed (set_subs w (remove_sub (w_subs w) sid)) t r prog sid)
| CS_unsub_chan sid se : forall (FREE : subs_free w = true) (FIND : find_sub (w_subs w) sid = Some se)
    (KIND : se_kind se = SKChan),
    CStep w t r prog (PUnsubLock sid) []
          (set_thread (set_subs w (remove_sub (w_subs w) sid)) t (TClient r prog (PUnsubCtx sid)))
| CS_unsub_send pc sid ph l c c' dr ph' : forall (AT : releasing_iter w pc sid ph l)
    (CHAN : get_chan (w_chans w) sid = Some c) (SEND : send_phase c IExit ph = Some (c', SMore ph', dr)),
    CStep w t r prog pc (sub_events sid IExit (SMore ph') dr)
          (set_thread (sub_sent (set_subs w l) sid c' IExit (SMore ph') dr) t (TClient r prog (PUnsubIterSend sid ph')))
| CS_unsub_sent pc sid ph l c c' dr ok : forall (AT : releasing_iter w pc sid ph l)
    (CHAN : get_chan (w_chans w) sid = Some c) (SEND : send_phase c IExit ph = Some (c', SDone ok, dr)),
    CStep w t r prog pc (sub_events sid IExit (SDone ok) dr ++ ret_events t prog (unsub_result prog))
          (unsubscribed (sub_sent (set_subs w l) sid c' IExit (SDone ok) dr) t r prog sid)
| CS_unsub_no_chan pc sid ph l : forall (AT : releasing_iter w pc sid ph l) (CHAN : get_chan (w_chans w) sid = None),
    CStep w t r prog pc (ret_events t prog (unsub_result prog)) (unsubscribed (set_subs w l) t r prog sid)
| CS_unsub_ctx sid : forall (CTX : ctx_free w sid = true),
    CStep w t r prog (PUnsubCtx sid) []
          (set_thread (set_chans w (hang_up (w_chans w) sid)) t (TClient r prog (PUnsubJoin sid)))
| CS_unsub_join sid : forall (ENDED : chan_thread_finished w sid = true),
    CStep w t r prog (PUnsubJoin sid) (ret_events t prog (unsub_result prog)) (unsubscribed w t r prog sid)
| CS_next_item sid c x l : forall (CHAN : get_chan (w_chans w) sid = Some c)
    (HEAD : q c = IAct x :: l) (DRAIN : is_drain prog = false),
    CStep w t r prog (PNextRecv sid) (ESubRecv sid (snd x) :: ret_events t prog (RItem (Some x)))
          (returned (emit (set_chan w sid (set_q c l)) (ESubRecv sid (snd x))) t r prog (RItem (Some x)))
| CS_drain_item sid c x l : forall (CHAN : get_chan (w_chans w) sid = Some c)
    (HEAD : q c = IAct x :: l)
    (DRAIN : is_drain prog = true),     (* the loop goes on: the call is invoked again *)
    CStep w t r prog (PNextRecv sid) (ESubRecv sid (snd x) :: ret_events t prog (RItem (Some x)))
          (emits (set_thread (emit (set_chan w sid (set_q c l)) (ESubRecv sid (snd x))) t (TClient r prog PIdle))
                 (ret_events t prog (RItem (Some x))))
| CS_next_exit sid c l : forall (CHAN : get_chan (w_chans w) sid = Some c) (HEAD : q c = IExit :: l),
    CStep w t r prog (PNextRecv sid) [] (set_thread (set_chan w sid (set_q c l)) t (TClient r prog (PUnsubLock sid)))
| CS_next_end sid : forall (END : chan_at (fun c => q c = [] /\ tx_alive c = false) (w_chans w) sid),
    CStep w t r prog (PNextRecv sid) [] (set_thread w t (TClient r prog (PUnsubLock sid))).

Definition forwards (x : subentry) : Prop := se_kind x = SKChan \/ se_kind x = SKIter.
Definition forwarding w (pc : rpc) a s x rest n ph : Prop :=
  (pc = RNotify a s (x :: rest) n /\ ph = SStart /\ forwards x /\
   exists c, get_chan (w_chans w) (se_id x) = Some c /\ tx_alive c = true) \/
  pc = RNotifySend a s x rest n ph.
Definition clearing_iter (pc : rpc) sid rest ph : Prop :=
  (exists x, pc = RClear (x :: rest) /\ se_kind x = SKIter /\ sid = se_id x /\ ph = SStart) \/
  pc = RClearIterSend sid rest ph.

Definition change_events (fired : bool) (sid v : N) (a : aid) : list event :=
  if fired then [ECb XReducer (CbOnChange sid v a)] else [].

Lemma Forall_change_events (P : event -> Prop) fired sid v a :
  P (ECb XReducer (CbOnChange sid v a)) -> Forall P (change_events fired sid v a).
Proof. destruct fired; cbn; auto. Qed.

Inductive RStep w : rpc -> list event -> world -> Prop :=
| RS_take x l : forall (HEAD : q (w_dq w) = x :: l),
    RStep w RRecv [EDeq x]
          (set_rpc (emit (upd_metrics (set_dq w (set_q (w_dq w) l)) (fun m => m_add_received m 1)) (EDeq x))
                   (match x with IAct a => RBeforeReduce a | IExit => RClearLock end))
| RS_disconnected : forall (EMPTY : q (w_dq w) = []) (DISC : tx_alive (w_dq w) = false),
    RStep w RRecv [] (set_rpc w RClearLock)
(* the four rules that run the pipeline name its verdicts, calls or trace and write the events, the
   counters and the next pc in the closed forms of PipelineProofs.v (`br_phase_spec`, `run_reducers_spec`,
   `be_phase_spec`, `bd_phase_spec`) *)
| RS_before_reduce a vs : forall (HOOKS : vs = br_verdicts (mws_of cfg w) a (w_state w)),
    RStep w (RBeforeReduce a) (cb_events XReducer (br_events 0 a (w_state w) vs))
          (set_rpc (emits (upd_metrics w (fun m => m_add_mw m (N.of_nat (length vs))))
                          (cb_events XReducer (br_events 0 a (w_state w) vs)))
                   (RReduce a (negb (any_done vs))))
| RS_reduce a calls : forall (CHAIN : calls = chain_calls 0 (reducers_of cfg w) (w_state w) a),
    RStep w (RReduce a true) (cb_events XReducer (map (call_event e_id a) calls) ++ [EReduced a])
          (set_rpc (emit (emits (upd_metrics w (fun m => m_add_reduced m 1))
                                (cb_events XReducer (map (call_event e_id a) calls)))
                         (EReduced a))
                   (RWrite a (chain_state (w_state w) calls) (chain_effs calls) (chain_disp true calls)))
| RS_vetoed a : RStep w (RReduce a false) [] (set_rpc w (RWrite a (w_state w) [] true))
| RS_write a s effs nd :
    RStep w (RWrite a s effs nd) [EWrite a s]
          (set_rpc (emit (set_state w s) (EWrite a s)) (RBeforeEffect a s effs nd))
| RS_before_effect a s effs nd tr : forall (HOOKS : tr = be_trace (mws_of cfg w) a s effs),
    RStep w (RBeforeEffect a s effs nd) (cb_events XReducer (be_events e_id 0 a s tr))
          (set_rpc (emits (upd_metrics w (fun m => m_add_mw (m_add_issued m (N.of_nat (length effs))) (N.of_nat (length tr))))
                          (cb_events XReducer (be_events e_id 0 a s tr)))
                   (spawn_next a s (be_final effs tr) nd))
| RS_spawn_none a s nd : RStep w (RSpawn a s [] nd) [] (set_rpc w (spawn_next a s [] nd))
| RS_spawn a s e rest nd : forall (POOL : w_pool w = true),
    RStep w (RSpawn a s (e :: rest) nd) [ESpawn (e_id e) (w_next_tid w)]
          (set_rpc (upd_metrics (spawn_worker w (e_id e) (prog_of_eff e) (eff_visible e))
                                (fun m => m_add_executed m 1))
                   (spawn_next a s rest nd))
| RS_spawn_skipped a s e rest nd : forall (POOL : w_pool w = false),
    RStep w (RSpawn a s (e :: rest) nd) [ESpawnSkipped (e_id e)]
          (set_rpc (upd_metrics (emit w (ESpawnSkipped (e_id e))) (fun m => m_add_executed m 1))
                   (spawn_next a s rest nd))
| RS_before_dispatch a s vs : forall (HOOKS : vs = bd_verdicts (mws_of cfg w) a s),
    RStep w (RBeforeDispatch a s) (cb_events XReducer (bd_events 0 a s vs))
          (set_rpc (emits (upd_metrics w (fun m => m_add_mw (m_add_state_notified m 1) (N.of_nat (length vs))))
                          (cb_events XReducer (bd_events 0 a s vs)))
                   (if negb (any_done vs) then RSnapshot a s else RRecv))
| RS_snapshot a s : forall (FREE : subs_free w = true),
    RStep w (RSnapshot a s) [ESnapshot a s (w_subs w)]
          (notified (emit w (ESnapshot a s (w_subs w))) a s (w_subs w) (length (w_subs w)))
| RS_notify_end a s n : RStep w (RNotify a s [] n) [] (notified w a s [] n)
| RS_notify_direct a s x rest n : forall (KIND : se_kind x = SKDirect),
    RStep w (RNotify a s (x :: rest) n) [ECb XReducer (CbNotify (se_id x) s a)]
          (notified (emit w (ECb XReducer (CbNotify (se_id x) s a))) a s rest n)
| RS_notify_selector a s x rest n sel last' fired : forall (KIND : se_kind x = SKSelector sel)
    (SEL : sel_notify N.eqb (get_assoc (se_id x) (w_lasts w)) (cfg_sel cfg sel s) = (last', fired)),
    RStep w (RNotify a s (x :: rest) n) (change_events fired (se_id x) (cfg_sel cfg sel s) a)
          (notified (emits (set_lasts w (match last' with
                                         | Some l => set_assoc (se_id x) l (w_lasts w)
                                         | None => w_lasts w
                                         end))
                           (change_events fired (se_id x) (cfg_sel cfg sel s) a)) a s rest n)
| RS_notify_dead a s x rest n : forall (KIND : forwards x)
    (DEAD : chan_at (fun c => tx_alive c = false) (w_chans w) (se_id x)),
    RStep w (RNotify a s (x :: rest) n) [] (notified w a s rest n)
| RS_forward pc a s x rest n ph c c' dr ph' : forall (AT : forwarding w pc a s x rest n ph)
    (CHAN : get_chan (w_chans w) (se_id x) = Some c) (SEND : send_phase c (IAct (s, a)) ph = Some (c', SMore ph', dr)),
    RStep w pc (sub_events (se_id x) (IAct (s, a)) (SMore ph') dr)
          (set_rpc (sub_sent w (se_id x) c' (IAct (s, a)) (SMore ph') dr) (RNotifySend a s x rest n ph'))
| RS_forwarded pc a s x rest n ph c c' dr ok : forall (AT : forwarding w pc a s x rest n ph)
    (CHAN : get_chan (w_chans w) (se_id x) = Some c) (SEND : send_phase c (IAct (s, a)) ph = Some (c', SDone ok, dr)),
    RStep w pc (sub_events (se_id x) (IAct (s, a)) (SDone ok) dr)
          (notified (sub_sent w (se_id x) c' (IAct (s, a)) (SDone ok) dr) a s rest n)
| RS_forward_no_chan pc a s x rest n ph : forall (AT : forwarding w pc a s x rest n ph)
    (CHAN : get_chan (w_chans w) (se_id x) = None),
    RStep w pc [] (notified w a s rest n)
| RS_clear_lock : forall (FREE : subs_free w = true), RStep w RClearLock [] (cleared w (w_subs w))
| RS_clear_end : RStep w (RClear []) [] (cleared w [])
| RS_clear_direct x rest : forall (KIND : se_kind x = SKDirect),
    RStep w (RClear (x :: rest)) [ECb XReducer (CbOnUnsub (se_id x))]
          (cleared (emit w (ECb XReducer (CbOnUnsub (se_id x)))) rest)
| RS_clear_selector x rest sel : forall (KIND : se_kind x = SKSelector sel), RStep w (RClear (x :: rest)) [] (cleared w rest)
| RS_clear_chan x rest : forall (KIND : se_kind x = SKChan),
    RStep w (RClear (x :: rest)) [] (set_rpc w (RClearCtx (se_id x) rest))
| RS_clear_send pc sid rest ph c c' dr ph' : forall (AT : clearing_iter pc sid rest ph)
    (CHAN : get_chan (w_chans w) sid = Some c) (SEND : send_phase c IExit ph = Some (c', SMore ph', dr)),
    RStep w pc (sub_events sid IExit (SMore ph') dr)
          (set_rpc (sub_sent w sid c' IExit (SMore ph') dr) (RClearIterSend sid rest ph'))
| RS_clear_sent pc sid rest ph c c' dr ok : forall (AT : clearing_iter pc sid rest ph)
    (CHAN : get_chan (w_chans w) sid = Some c) (SEND : send_phase c IExit ph = Some (c', SDone ok, dr)),
    RStep w pc (sub_events sid IExit (SDone ok) dr) (cleared (sub_sent w sid c' IExit (SDone ok) dr) rest)
| RS_clear_no_chan pc sid rest ph : forall (AT : clearing_iter pc sid rest ph) (CHAN : get_chan (w_chans w) sid = None),
    RStep w pc [] (cleared w rest)
| RS_clear_ctx sid rest :
    RStep w (RClearCtx sid rest) [] (set_rpc (set_chans w (hang_up (w_chans w) sid)) (RClearJoin sid rest))
| RS_clear_join sid rest : forall (ENDED : chan_thread_finished w sid = true),
    RStep w (RClearJoin sid rest) [] (cleared w rest).

(* the thread that serves a channeled subscriber (its handler) *)
Inductive HStep w (t sid : N) : list event -> world -> Prop :=
| HS_deliver c s a l : forall (CHAN : get_chan (w_chans w) sid = Some c) (HEAD : q c = IAct (s, a) :: l),
    HStep w t sid [ESubRecv sid a; ECb (XChan sid) (CbNotify sid s a)]
          (emit (emit (upd_metrics (set_chan w sid (set_q c l)) (fun m => m_add_sub_notified m 1)) (ESubRecv sid a))
                (ECb (XChan sid) (CbNotify sid s a)))
| HS_exit c l : forall (CHAN : get_chan (w_chans w) sid = Some c) (HEAD : q c = IExit :: l),
    HStep w t sid [ECb (XChan sid) (CbOnUnsub sid)]
          (set_thread (emit (set_chan w sid (set_q c l)) (ECb (XChan sid) (CbOnUnsub sid))) t (TChan sid true))
| HS_disconnected c : forall (CHAN : get_chan (w_chans w) sid = Some c) (EMPTY : q c = []) (DISC : tx_alive c = false),
    HStep w t sid [ECb (XChan sid) (CbOnUnsub sid)]
          (set_thread (emit w (ECb (XChan sid) (CbOnUnsub sid))) t (TChan sid true)).

Inductive Step w (t : N) (evs : list event) (w' : world) : Prop :=
| Step_client r prog pc : get_thread (w_threads w) t = Some (TClient r prog pc) ->
    CStep w t r prog pc evs w' -> Step w t evs w'
| Step_reducer pc : t = reducer_tid -> get_thread (w_threads w) reducer_tid = Some (TReducer pc) ->
    RStep w pc evs w' -> Step w t evs w'
| Step_chan sid : get_thread (w_threads w) t = Some (TChan sid false) -> HStep w t sid evs w' -> Step w t evs w'.

(* H : Some (world term) = Some w', where the world term is what rule R concludes once the
   helpers of `step` are in normal form; unlike `injection`, this leaves the term as it is written *)
Lemma Some_inj {A} (a b : A) : Some a = Some b -> a = b.
Proof. now intros [= ->]. Qed.
Ltac inv_world H := apply Some_inj in H; subst.
Ltac by_rule H R :=
  inv_world H; rewrite ?ret_eq, ?finish_unsub_eq, ?after_close_eq, ?after_notify_eq, ?after_clear_eq;
  eexists; eapply R; eauto 8.

Lemma invoke_inv w t r prog pc w' : invoking r pc ->
  invoke w t r prog false = Some w' -> exists evs, CStep w t r prog pc evs w'.
Proof.
  intros I H. destruct prog as [|c rest]; [discriminate|].
  pose proof (fun P => CS_invoke w t r _ pc c rest I eq_refl P) as X.
  destruct c; unfold invoke in H; cbn [invoke_pc plain_call] in X;
    try (destruct (memN _ _)); inv_world H; try (eexists; exact (X Logic.I)).
  - eexists. eapply CS_subscribed; eauto.
  - eexists. eapply CS_iter; eauto.
  - eexists. eapply CS_panic; eauto.
Qed.

(* One lemma per premise AT. The pc that takes the lock does what the pc that goes on does at
   `SStart` (in the world w0 where the field a start changes is set), so a send standing at pc,
   either way, is read off `step` at the pc that goes on. *)
Lemma dispatching_inv w t r prog pc e a ph w' : dispatching w pc e a ph ->
  step_client w t r prog (PSending e a ph) = Some w' -> exists evs, CStep w t r prog pc evs w'.
Proof.
  intros AT H. unfold step_client, dq_phase in H.
  destruct (send_phase _ _ ph) as [[[dq' [ph'|ok]] dr]|] eqn:SEND;
    [by_rule H CS_send|by_rule H CS_sent|discriminate].
Qed.
Lemma closing_inv w t r prog pc stop ph o w' : closing w pc stop ph o ->
  step_client (set_tx_open w o) t r prog (PCloseSending stop ph) = Some w' -> exists evs, CStep w t r prog pc evs w'.
Proof.
  intros AT H. unfold step_client, dq_phase in H.
  destruct (send_phase _ _ ph) as [[[dq' [ph'|ok]] dr]|] eqn:SEND;
    [by_rule H CS_close_send|by_rule H CS_close_sent|discriminate].
Qed.
Lemma releasing_inv w t r prog pc sid ph l w0 w' : releasing_iter w pc sid ph l ->
  step_client w0 t r prog (PUnsubIterSend sid ph) = Some w' -> set_subs w l = w0 ->
  exists evs, CStep w t r prog pc evs w'.
Proof.
  intros AT H <-. unfold step_client, sub_phase in H.
  destruct (get_chan _ sid) as [c|] eqn:CHAN; [|by_rule H CS_unsub_no_chan].
  destruct (send_phase c _ ph) as [[[c' [ph'|ok]] dr]|] eqn:SEND;
    [by_rule H CS_unsub_send|by_rule H CS_unsub_sent|discriminate].
Qed.

Lemma step_client_inv w t r prog pc w' :
  step_client w t r prog pc = Some w' -> exists evs, CStep w t r prog pc evs w'.
Proof.
  intros H. destruct pc; cbn [step_client] in H.
  - now apply invoke_inv; [left|].
  - (* PCall *)
    destruct prog as [|c rest]; [|destruct c]; try (by_rule H CS_call; exact I).
    1,2: destruct (w_pool w) eqn:P; [by_rule H CS_task|by_rule H CS_task_skipped]; reflexivity.
    + by_rule H CS_add_reducer.
    + by_rule H CS_add_middleware.
  - (* PTaskStart *)
    destruct r; [by_rule H CS_task_client|destruct visible; [by_rule H CS_task_run|]].
    apply invoke_inv; [right; eauto|exact H].
  - (* PDispatchTx *)
    destruct (tx_free w) eqn:F; [|discriminate]. destruct (w_tx_open w) eqn:O.
    + eapply dispatching_inv; [left; eauto|exact H].
    + inv_world H. rewrite ret_eq. eexists. destruct e; exact (CS_send_closed w t r prog _ a F O).
  - (* PSending *) eapply dispatching_inv; [now right|exact H].
  - (* PCloseTx *)
    destruct (tx_free w) eqn:F; [|discriminate]. destruct (w_tx_open w) eqn:O.
    + eapply closing_inv; [left; eauto 6|exact H].
    + destruct stop; inv_world H; rewrite ?ret_eq; eexists; exact (CS_close_again w t r prog _ F O).
  - (* PCloseSending *) eapply closing_inv; [right; eauto|exact H].
  - (* PStopTake *) destruct (w_pool w) eqn:P; [by_rule H CS_take|by_rule H CS_take_none].
  - (* PStopJoin *) destruct (pool_idle w) eqn:P; [|discriminate]. by_rule H CS_join.
  - (* PSubsAdd *) destruct (subs_free w) eqn:F; [|discriminate]. by_rule H CS_add.
  - (* PUnsubLock *)
    destruct (subs_free w) eqn:F; [|discriminate].
    destruct (find_sub (w_subs w) sid) as [se|] eqn:S; [|by_rule H CS_unsub_absent].
    destruct (se_kind se) eqn:K;
      [by_rule H CS_unsub_direct|by_rule H CS_unsub_selector|by_rule H CS_unsub_chan|].
    eapply releasing_inv; [left; eauto 10|exact H|reflexivity].
  - (* PUnsubCtx *)
    destruct (ctx_free w sid) eqn:F; [|discriminate]. inv_world H. eexists.
    pose proof (CS_unsub_ctx w t r prog sid F) as X. unfold hang_up in X.
    destruct (get_chan (w_chans w) sid); exact X.
  - (* PUnsubJoin *) destruct (chan_thread_finished w sid) eqn:F; [|discriminate]. by_rule H CS_unsub_join.
  - (* PUnsubIterSend *) eapply releasing_inv; [right; eauto|exact H|now destruct w].
  - (* PNextRecv *)
    destruct (get_chan (w_chans w) sid) as [c|] eqn:G; [|by_rule H CS_next_end; intros c; congruence].
    unfold recv in H. destruct (q c) as [|[x|] l] eqn:Q; [destruct (tx_alive c) eqn:A; [discriminate|]| |].
    + by_rule H CS_next_end. intros c0 G0. split; congruence.
    + destruct (is_drain prog) eqn:D.
      * (* `step` writes the entry twice *)
        destruct prog as [|[] ?]; try discriminate D. eexists. inv_world H.
        pose proof (CS_drain_item w t r _ sid c x l G Q D) as X.
        unfold set_thread. cbn. rewrite put_put_same. exact X.
      * eexists. pose proof (CS_next_item w t r prog sid c x l G Q D) as X. rewrite <- ret_eq in X.
        destruct prog as [|[] ?]; try discriminate D; inv_world H; exact X.
    + by_rule H CS_next_exit.
Qed.

#[local] Hint Unfold forwards : core.
Lemma forwarding_inv w pc a s x rest n ph w' : forwarding w pc a s x rest n ph ->
  step_reducer cfg w (RNotifySend a s x rest n ph) = Some w' -> exists evs, RStep w pc evs w'.
Proof.
  intros AT H. unfold step_reducer, sub_phase in H.
  destruct (get_chan _ _) as [c|] eqn:CHAN; [|by_rule H RS_forward_no_chan].
  destruct (send_phase c _ ph) as [[[c' [ph'|ok]] dr]|] eqn:SEND;
    [by_rule H RS_forward|by_rule H RS_forwarded|discriminate].
Qed.
Lemma clearing_inv w pc sid rest ph w' : clearing_iter pc sid rest ph ->
  step_reducer cfg w (RClearIterSend sid rest ph) = Some w' -> exists evs, RStep w pc evs w'.
Proof.
  intros AT H. unfold step_reducer, sub_phase in H.
  destruct (get_chan _ _) as [c|] eqn:CHAN; [|by_rule H RS_clear_no_chan].
  destruct (send_phase c _ ph) as [[[c' [ph'|ok]] dr]|] eqn:SEND;
    [by_rule H RS_clear_send|by_rule H RS_clear_sent|discriminate].
Qed.

Lemma step_reducer_inv w pc w' : step_reducer cfg w pc = Some w' -> exists evs, RStep w pc evs w'.
Proof.
  intros H. destruct pc; cbn [step_reducer] in H.
  - (* RRecv *)
    unfold recv in H. destruct (q (w_dq w)) as [|x l] eqn:Q.
    + destruct (tx_alive (w_dq w)) eqn:A; [discriminate|by_rule H RS_disconnected].
    + eexists. pose proof (RS_take w x l Q) as X. destruct x; inv_world H; exact X.
  - rewrite br_phase_spec in H. by_rule H RS_before_reduce.
  - destruct go; [|by_rule H RS_vetoed].
    rewrite run_reducers_spec in H. by_rule H RS_reduce.
  - by_rule H RS_write.
  - rewrite be_phase_spec in H. eexists.
    pose proof (RS_before_effect w a s effs nd _ eq_refl) as X. cbv zeta in H.
    destruct (be_final _ _); [destruct nd|]; inv_world H; exact X.
  - destruct effs as [|e rest].
    + eexists. pose proof (RS_spawn_none w a s nd) as X. destruct nd; inv_world H; exact X.
    + destruct (w_pool w) eqn:P; eexists;
        [pose proof (RS_spawn w a s e rest nd P) as X|pose proof (RS_spawn_skipped w a s e rest nd P) as X];
        (destruct rest; [destruct nd|]; inv_world H; exact X).
  - rewrite bd_phase_spec in H. eexists.
    pose proof (RS_before_dispatch w a s _ eq_refl) as X. cbv zeta in H.
    destruct (any_done _); inv_world H; exact X.
  - destruct (subs_free w) eqn:F; [|discriminate]. by_rule H RS_snapshot.
  - (* RNotify *)
    destruct rest as [|x rest]; [by_rule H RS_notify_end|].
    destruct (se_kind x) eqn:K; [by_rule H RS_notify_direct| | |].
    { destruct (sel_notify _ _ _) as [last' fired] eqn:S. eexists.
      pose proof (RS_notify_selector w a s x rest n sel last' fired K S) as X. rewrite <- after_notify_eq in X.
      destruct last', fired; inv_world H; exact X. }
    (* a channeled subscriber and an iterator alike *)
    all: destruct (get_chan (w_chans w) (se_id x)) as [c|] eqn:G; [|by_rule H RS_notify_dead; intros c; congruence].
    all: destruct (tx_alive c) eqn:A; [|by_rule H RS_notify_dead; intros c0 G0; congruence].
    all: eapply forwarding_inv; [left; eauto 10|exact H].
  - eapply forwarding_inv; [now right|exact H].
  - destruct (subs_free w) eqn:F; [|discriminate]. by_rule H RS_clear_lock.
  - (* RClear *)
    destruct rest as [|x rest]; [by_rule H RS_clear_end|].
    destruct (se_kind x) eqn:K;
      [by_rule H RS_clear_direct|by_rule H RS_clear_selector|by_rule H RS_clear_chan|].
    eapply clearing_inv; [left; eauto 10|exact H].
  - inv_world H. eexists. pose proof (RS_clear_ctx w sid rest) as X. unfold hang_up in X.
    destruct (get_chan (w_chans w) sid); exact X.
  - destruct (chan_thread_finished w sid) eqn:F; [|discriminate]. by_rule H RS_clear_join.
  - eapply clearing_inv; [now right|exact H].
  - discriminate.
Qed.

Lemma step_chan_inv w t sid w' : step_chan w t sid false = Some w' -> exists evs, HStep w t sid evs w'.
Proof.
  unfold step_chan. destruct (get_chan (w_chans w) sid) as [c|] eqn:G; [|discriminate].
  unfold recv. destruct (q c) as [|[[s a]|] l] eqn:Q; [destruct (tx_alive c) eqn:A; [discriminate|]| |]; intros H;
    [by_rule H HS_disconnected|by_rule H HS_deliver|by_rule H HS_exit].
Qed.

Theorem step_inv w t w' : step cfg w t = Some w' -> exists evs, Step w t evs w'.
Proof.
  unfold step. destruct (get_thread (w_threads w) t) as [[r prog pc|pc|sid []]|] eqn:G; try discriminate.
  - intros H. apply step_client_inv in H. destruct H as [evs H]. exists evs. eapply Step_client; eauto.
  - destruct (N.eqb_spec t reducer_tid) as [->|]; [|discriminate].
    intros H. apply step_reducer_inv in H. destruct H as [evs H]. exists evs. eapply Step_reducer; eauto.
  - intros H. apply step_chan_inv in H. destruct H as [evs H]. exists evs. eapply Step_chan; eauto.
Qed.

End WorldStep.

(* the pcs a rule may lead to that are a case distinction on a flag or on a list (see
   `break_goal_match`, WorldTactics.v) *)
Create HintDb next_pc.
#[export] Hint Unfold invoke_pc spawn_next next_notify next_clear : next_pc.

#[export] Hint Resolve Forall_ret_events Forall_change_events : evs.
(* results that are computed from the entry point or from the call: P may depend on them *)
#[export] Hint Extern 5 => match goal with |- context [dispatch_result ?e ?ok] => destruct e, ok end : evs.
#[export] Hint Extern 5 => match goal with |- context [unsub_result ?p] => destruct p as [|[] ?] end : evs.
#[export] Hint Extern 5 => match goal with |- context [call_result ?w ?p] => destruct p as [|[] ?] end : evs.

Ltac simp_step :=
  cbn [w_state w_dq w_tx_open w_reducers w_mws w_subs w_chans w_lasts w_iter_done w_pool w_threads
       w_next_tid w_metrics w_hist
       returned unsubscribed closed notified cleared dq_sent sub_sent
       set_chan spawn_worker emit emits upd_metrics set_thread set_state set_dq set_tx_open
       set_reducers set_mws set_subs set_chans set_lasts set_iter_done set_pool set_threads
       set_next_tid set_metrics set_hist set_rpc] in *.

(* One goal per rule. `destruct_Step H` takes H : Step cfg w t evs w' apart, `step_cases H`
   H : step cfg w t = Some w'; `step_rules H Hh` adds Hh : w_hist w' = rev evs ++ w_hist w, for an
   invariant that looks at the history. TH is the entry of the stepping thread; the premises and
   variables of a rule keep the names of its declaration (FREE, FIND, KIND, HEAD, POOL, SEND, CHAN,
   ...; prog, stop, x, rest, dq', dr, ..), the variables only if the context has none of them before
   the call. The premise AT of a sending rule says where the thread stands (at the pc that takes the
   lock, or going on) and stays closed: `open_at AT` for a proof that has to know. *)
Ltac destruct_Step H :=
  destruct H as [? ? ? TH H|? -> TH H|? TH H]; destruct H.

Lemma Step_hist {State : Type} (cfg : wconfig (State := State)) w t evs w' :
  Step cfg w t evs w' -> w_hist w' = rev evs ++ w_hist w.
Proof.
  intros H. destruct_Step H; simp_step; rewrite ?rev_app_distr; cbn [rev]; rewrite <- ?app_assoc; reflexivity.
Qed.

Ltac step_cases H := let evs := fresh "evs" in apply step_inv in H; destruct H as [evs H]; destruct_Step H.
Ltac step_rules H Hh :=
  let evs := fresh "evs" in
  apply step_inv in H; destruct H as [evs H]; pose proof (Step_hist _ _ _ _ _ H) as Hh; destruct_Step H.

(* `open_at AT`: what AT says stays, under the names TXFREE, OPEN (a dispatch or a close that
   starts), FREE, FIND, KIND (an unsubscribe that starts), KIND (the subscriber a send of the reducer
   starts for). `open_start AT` opens only the two premises that carry a field value of w'. *)
Ltac open_start AT :=
  lazymatch type of AT with
  | closing _ _ _ _ _ => destruct AT as [(-> & -> & TXFREE & OPEN & ->)|(-> & ->)]
  | releasing_iter _ _ _ _ _ => destruct AT as [(-> & -> & FREE & (? & FIND & KIND) & ->)|(-> & ->)]
  end.
Ltac open_at AT :=
  lazymatch type of AT with
  | dispatching _ _ _ _ _ => destruct AT as [(-> & -> & TXFREE & OPEN)| ->]
  | forwarding _ _ _ _ _ _ _ _ => destruct AT as [(-> & -> & KIND & _)| ->]
  | clearing_iter _ _ _ _ => destruct AT as [(? & -> & KIND & -> & ->)| ->]
  | _ => open_start AT
  end.

Section StepThreads.
Context {State : Type}.
Variable cfg : wconfig (State := State).
Notation thread := (thread (State := State)).
Implicit Types w : World.world (State := State).

(* the entry a step leaves for its own thread; `[]` is a panic *)
Definition succ_of (th th' : thread) : Prop :=
  match th, th' with
  | TClient r prog _, TClient r' prog' _ => r' = r /\ (prog' = prog \/ prog' = tl prog \/ prog' = [])
  | TReducer _, TReducer _ => True
  | TChan sid _, TChan sid' _ => sid' = sid
  | _, _ => False
  end.
(* a body only dispatches and panics *)
Definition body_prog (prog : list call) : Prop :=
  forall Q : call -> Prop, (forall e a, Q (CDispatch e a)) -> Q CPanic -> Forall Q prog.
Lemma body_calls b : body_prog (calls_of_body b).
Proof. intros Q Qd Qp. induction b as [|[e a| |] b IH]; cbn; auto. Qed.
Lemma body_eff e : body_prog (prog_of_eff e).
Proof. unfold prog_of_eff. destruct (e_kind e); try apply body_calls. intros Q Qd Qp. auto. Qed.

(* worker ids go up by two: they stay even, and a subscriber's thread has an odd id (`chan_tid`) *)
Definition started w w' (t2 : N) (th2 : thread) : Prop :=
  (exists sid, t2 = chan_tid sid /\ th2 = TChan sid false /\ w_next_tid w' = w_next_tid w) \/
  (t2 = w_next_tid w /\ w_next_tid w' = (w_next_tid w + 2)%N /\
   exists k prog v, th2 = TClient (Worker k) prog (PTaskStart k v) /\ body_prog prog).

(* the id of a new worker is at least 1000, that of a subscriber's thread is odd *)
Lemma started_not_reducer w w' t2 th2 : started w w' t2 th2 -> (1000 <= w_next_tid w)%N -> t2 <> reducer_tid.
Proof. intros [(sid & -> & _)|(-> & _)] NT; unfold chan_tid, reducer_tid; lia. Qed.

Inductive table_after w t (th : thread) w' : Prop :=
| TA_put th' : succ_of th th' -> w_threads w' = put_thread (w_threads w) t th' ->
    w_next_tid w' = w_next_tid w -> table_after w t th w'
| TA_new t2 th2 th' : succ_of th th' -> started w w' t2 th2 ->
    w_threads w' = put_thread (put_thread (w_threads w) t2 th2) t th' -> table_after w t th w'.

Lemma step_table w t w' : step cfg w t = Some w' ->
  exists th, get_thread (w_threads w) t = Some th /\ table_after w t th w'.
Proof.
  intros H. step_cases H; eexists; (split; [exact TH|]).
  all: try (eapply TA_put; [|reflexivity|reflexivity]; cbn; try destruct stop; auto; fail).
  - (* CS_subscribed *) eapply TA_new; cycle 2; [reflexivity|cbn; auto|left; eauto].
  - (* CS_task *) eapply TA_new; cycle 2; [reflexivity|cbn; auto|right; eauto 10 using body_calls].
  - (* RS_spawn *) eapply TA_new; cycle 2; [reflexivity|exact I|right; eauto 10 using body_eff].
  - (* HS_deliver: no entry is written *)
    eapply TA_put; [|symmetry; apply put_get_same, TH|reflexivity]. reflexivity.
Qed.

Lemma step_next_tid w t w' : step cfg w t = Some w' ->
  w_next_tid w' = w_next_tid w \/ w_next_tid w' = (w_next_tid w + 2)%N.
Proof. intros H. apply step_table in H as (th & _ & [? _ _ N|? ? ? _ [(? & _ & _ & N)|(_ & N & _)] _]); auto. Qed.

Lemma step_entry w t w' t1 th1 : step cfg w t = Some w' -> get_thread (w_threads w') t1 = Some th1 ->
  (exists th, get_thread (w_threads w) t = Some th /\ t1 = t /\ succ_of th th1) \/
  started w w' t1 th1 \/ get_thread (w_threads w) t1 = Some th1.
Proof.
  intros H G. apply step_table in H as (th & TH & [th' S E _|t2 th2 th' S NEW E]); rewrite E in G;
    apply get_put_inv in G as [[-> ->]|[_ G]]; eauto; apply get_put_inv in G as [[-> ->]|[_ G]]; auto.
Qed.

(* the other way round: no entry is lost. It is succeeded (the stepping thread's), overwritten by
   the thread the step starts, or stays *)
Lemma step_keeps w t w' t1 th1 : step cfg w t = Some w' -> get_thread (w_threads w) t1 = Some th1 ->
  (t1 = t /\ exists th', succ_of th1 th' /\ get_thread (w_threads w') t = Some th') \/
  (exists th2, started w w' t1 th2 /\ get_thread (w_threads w') t1 = Some th2) \/
  get_thread (w_threads w') t1 = Some th1.
Proof.
  intros H G. apply step_table in H as (th & TH & [th' S E _|t2 th2 th' S NEW E]); rewrite E;
    (destruct (N.eq_dec t1 t) as [->|N1]; [left; rewrite get_put_same; split; [reflexivity|exists th'; split; congruence]|right]);
    rewrite !(get_put_other _ t t1) by exact N1; [now right|].
  destruct (N.eq_dec t1 t2) as [->|N2]; [rewrite get_put_same; eauto|rewrite get_put_other by exact N2; auto].
Qed.

(* in a proof by `step_rules`, pose this before, for the entry in question: it speaks of `step` *)
Lemma step_keeps_reducer w t w' t' pc' : step cfg w t = Some w' ->
  (forall pc, get_thread (w_threads w) t <> Some (TReducer pc)) ->
  get_thread (w_threads w') t' = Some (TReducer pc') -> get_thread (w_threads w) t' = Some (TReducer pc').
Proof.
  intros H NR G. destruct (step_entry _ _ _ _ _ H G) as [(th & TH & _ & S)|[NEW|G0]]; [exfalso|exfalso|exact G0].
  - destruct th; try contradiction. exact (NR _ TH).
  - destruct NEW as [(? & _ & [=] & _)|(_ & _ & ? & ? & ? & [=] & _)].
Qed.

Lemma step_other_reducer w t w' : (1000 <= w_next_tid w)%N -> step cfg w t = Some w' -> t <> reducer_tid ->
  get_thread (w_threads w') reducer_tid = get_thread (w_threads w) reducer_tid.
Proof.
  intros NT H NE. destruct (step_table _ _ _ H) as (th & _ & [th' _ -> _|t2 th2 th' _ NEW ->]);
    rewrite get_put_other by congruence; [reflexivity|].
  apply get_put_other. intros E. exact (started_not_reducer _ _ _ _ NEW NT (eq_sym E)).
Qed.

(* Programs only lose calls and a new pool thread runs a body, so a property of calls that holds
   of a worker's dispatches and panics holds of every program for ever, if it holds of the programs
   given. Q takes the role so that it can say more of a worker's calls. *)
Definition progs_all (Q : role -> call -> Prop) (th : thread) : Prop :=
  match th with TClient r prog _ => Forall (Q r) prog | _ => True end.

Section Progs.
Variable Q : role -> call -> Prop.
Hypothesis Qd : forall k e a, Q (Worker k) (CDispatch e a).
Hypothesis Qp : forall k, Q (Worker k) CPanic.

Lemma step_progs w t w' : step cfg w t = Some w' ->
  (forall t th, get_thread (w_threads w) t = Some th -> progs_all Q th) ->
  forall t th, get_thread (w_threads w') t = Some th -> progs_all Q th.
Proof.
  intros H T t1 th1 G. destruct (step_entry _ _ _ _ _ H G) as [(th & TH & _ & S)|[NEW|G0]]; [| |exact (T _ _ G0)].
  - apply T in TH. destruct th as [r prog pc| |], th1 as [r1 prog1 pc1| |]; try exact I; try contradiction.
    destruct S as [-> [-> | [-> | ->]]]; cbn; auto. destruct TH; cbn; auto.
  - destruct NEW as [(? & _ & -> & _)|(_ & _ & k & ? & ? & -> & B)]; [exact I|]. apply (B (Q (Worker k))); auto.
Qed.

End Progs.
End StepThreads.
