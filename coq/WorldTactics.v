(* WorldTactics.v — thread and channel tables: lookup after update, predicates over all entries, the
   initial table; one tactic for case distinctions in goals. *)
From RS Require Import Base Channel Script World.

(* The pc (or the program, the registry, ...) a rule leads to may depend on a flag or on whether a
   list is empty: `if nn then .. else ..`, `match rest with ..`, or a definition that is one (unfold
   hints `next_pc`, WorldStep.v). What holds of it whichever way the flag falls is proved by
   `autounfold with next_pc; repeat break_goal_match; <reflexivity/exact I/..>`: break_goal_match
   destructs the scrutinee of an innermost match in the goal. *)
Ltac break_goal_match :=
  match goal with
  | |- context [match ?x with _ => _ end] =>
      lazymatch x with
      | context [match _ with _ => _ end] => fail
      | _ => destruct x
      end
  end.

Section Lemmas.
Context {State : Type}.
Notation thread := (thread (State := State)).

Lemma get_put_same (l : list (N * thread)) t th :
  get_thread (put_thread l t th) t = Some th.
Proof.
  induction l as [|[t' th'] r IH]; cbn; [now rewrite N.eqb_refl|].
  destruct (N.eqb t t') eqn:E; cbn; [now rewrite N.eqb_refl|now rewrite E].
Qed.

Lemma get_put_other (l : list (N * thread)) t t' th :
  t' <> t -> get_thread (put_thread l t th) t' = get_thread l t'.
Proof.
  intros Hne. induction l as [|[t0 th0] r IH]; cbn.
  - destruct (N.eqb_spec t' t); [contradiction|reflexivity].
  - destruct (N.eqb_spec t t0); cbn.
    + subst. destruct (N.eqb_spec t' t0); [contradiction|reflexivity].
    + destruct (N.eqb_spec t' t0); [reflexivity|exact IH].
Qed.

Lemma get_put_chan_same (l : list (N * chan (State * aid))) s c : get_chan (put_chan l s c) s = Some c.
Proof.
  induction l as [|[k c'] r IH]; cbn; [now rewrite N.eqb_refl|].
  destruct (N.eqb s k) eqn:E; cbn; [now rewrite N.eqb_refl|now rewrite E].
Qed.

Lemma get_put_chan_other (l : list (N * chan (State * aid))) s s' c :
  s' <> s -> get_chan (put_chan l s c) s' = get_chan l s'.
Proof.
  intros Hne. induction l as [|[k c'] r IH]; cbn.
  - destruct (N.eqb_spec s' s); [contradiction|reflexivity].
  - destruct (N.eqb_spec s k); cbn.
    + subst. destruct (N.eqb_spec s' k); [contradiction|reflexivity].
    + destruct (N.eqb_spec s' k); [reflexivity|exact IH].
Qed.

Lemma get_put_inv (l : list (N * thread)) t th t' th' :
  get_thread (put_thread l t th) t' = Some th' ->
  (t' = t /\ th' = th) \/ (t' <> t /\ get_thread l t' = Some th').
Proof.
  intros G. destruct (N.eq_dec t' t) as [->|NE].
  - rewrite get_put_same in G. injection G as <-. now left.
  - rewrite get_put_other in G by exact NE. now right.
Qed.
Lemma get_put_chan_inv (l : list (N * chan (State * aid))) s c s' c' :
  get_chan (put_chan l s c) s' = Some c' ->
  (s' = s /\ c' = c) \/ (s' <> s /\ get_chan l s' = Some c').
Proof.
  intros G. destruct (N.eq_dec s' s) as [->|NE].
  - rewrite get_put_chan_same in G. injection G as <-. now left.
  - rewrite get_put_chan_other in G by exact NE. now right.
Qed.

Lemma put_chan_keys (l : list (N * chan (State * aid))) s c c' :
  get_chan l s = Some c -> map fst (put_chan l s c') = map fst l.
Proof.
  induction l as [|[k c0] r IH]; cbn; [discriminate|].
  destruct (N.eqb_spec s k) as [->|]; cbn; [reflexivity|]. intros G. now rewrite IH.
Qed.
Lemma put_chan_key (l : list (N * chan (State * aid))) s c x :
  In x (map fst (put_chan l s c)) -> x = s \/ In x (map fst l).
Proof.
  induction l as [|[k c0] r IH]; cbn; [intros [<-|[]]; now left|].
  destruct (N.eqb s k); cbn; (intros [<-|I]; [auto|]); [auto|destruct (IH I); auto].
Qed.

Definition chan_at (P : chan (State * aid) -> Prop) (l : list (N * chan (State * aid))) (sid : N) : Prop :=
  forall c, get_chan l sid = Some c -> P c.
Definition chans_all (P : chan (State * aid) -> Prop) (l : list (N * chan (State * aid))) : Prop :=
  forall sid c, get_chan l sid = Some c -> P c.
Lemma chan_at_put P l s c sid : chan_at P l sid -> (sid = s -> P c) -> chan_at P (put_chan l s c) sid.
Proof. intros H Pc c0 G. apply get_put_chan_inv in G as [[E ->]|[_ G]]; auto. Qed.
Lemma chan_at_put_other P l s c sid : chan_at P l sid -> sid <> s -> chan_at P (put_chan l s c) sid.
Proof. intros H NE. apply chan_at_put; [exact H|contradiction]. Qed.
Lemma chans_all_put P l sid c : chans_all P l -> P c -> chans_all P (put_chan l sid c).
Proof. intros H Pc s. apply chan_at_put; [exact (H s)|auto]. Qed.

Lemma get_thread_in (l : list (N * thread)) t th : get_thread l t = Some th -> In (t, th) l.
Proof.
  induction l as [|[t' th'] r IH]; cbn; [discriminate|].
  destruct (N.eqb_spec t t') as [->|NE]; [intros E; injection E as <-; now left|intros G; right; auto].
Qed.
(* a lock that is free (`tx_free`, `subs_free`, `ctx_free` of World.v are of this form) is held by no
   thread; `nobody_holds` is the converse *)
Lemma free_get (f : thread -> bool) (l : list (N * thread)) t th :
  negb (existsb (fun p => f (snd p)) l) = true -> get_thread l t = Some th -> f th = false.
Proof.
  intros F G. apply get_thread_in in G. destruct (f th) eqn:E; [|reflexivity].
  apply negb_true_iff in F. rewrite <- F. symmetry. apply existsb_exists. now exists (t, th).
Qed.
Lemma forallb_get (f : thread -> bool) (l : list (N * thread)) t th :
  forallb (fun p => f (snd p)) l = true -> get_thread l t = Some th -> f th = true.
Proof. intros F G. apply get_thread_in in G. rewrite forallb_forall in F. exact (F _ G). Qed.
Lemma forallb_put (f : thread -> bool) (l : list (N * thread)) t th :
  forallb (fun p => f (snd p)) l = true -> f th = true ->
  forallb (fun p => f (snd p)) (put_thread l t th) = true.
Proof.
  intros H Hf. induction l as [|[t' th'] r IH]; cbn in *.
  - now rewrite Hf.
  - apply andb_true_iff in H. destruct H as [H1 H2].
    destruct (N.eqb t t'); cbn; [now rewrite Hf, H2|rewrite H1; now apply IH].
Qed.
Lemma put_thread_key (l : list (N * thread)) t th x :
  In x (map fst (put_thread l t th)) -> x = t \/ In x (map fst l).
Proof.
  induction l as [|[t0 th0] r IH]; cbn; [|destruct (N.eqb_spec t t0) as [->|NE]; cbn]; intuition (subst; auto).
Qed.
Lemma NoDup_put (l : list (N * thread)) t th : NoDup (map fst l) -> NoDup (map fst (put_thread l t th)).
Proof.
  induction l as [|[t' th'] r IH]; cbn; intros ND; [repeat constructor; intros []|].
  inversion ND as [|? ? NI ND']; subst. destruct (N.eqb_spec t t') as [->|NE]; cbn; constructor; auto.
  intros I. apply put_thread_key in I. destruct I as [->|I]; [now apply NE|now apply NI].
Qed.
Lemma in_get_thread (l : list (N * thread)) t th : NoDup (map fst l) -> In (t, th) l -> get_thread l t = Some th.
Proof.
  induction l as [|[t' th'] r IH]; cbn; [contradiction|]. intros ND [E|I].
  - injection E as -> ->. now rewrite N.eqb_refl.
  - apply NoDup_cons_iff in ND as [NI ND]. destruct (N.eqb_spec t t') as [->|NE]; [|auto].
    destruct NI. exact (in_map fst _ _ I).
Qed.
(* a held lock has a holder *)
Lemma existsb_holder (f : thread -> bool) (l : list (N * thread)) : NoDup (map fst l) ->
  existsb (fun p => f (snd p)) l = true -> exists t th, get_thread l t = Some th /\ f th = true.
Proof.
  intros ND E. apply existsb_exists in E. destruct E as ([t th] & I & F). exists t, th.
  split; [now apply in_get_thread|exact F].
Qed.
Lemma nobody_holds (f : thread -> bool) (l : list (N * thread)) : NoDup (map fst l) ->
  (forall t th, get_thread l t = Some th -> f th = true -> False) -> negb (existsb (fun p => f (snd p)) l) = true.
Proof.
  intros ND F. destruct (existsb _ _) eqn:E; [exfalso|reflexivity].
  apply existsb_holder in E; [|exact ND]. destruct E as (t & th & G & H). exact (F _ _ G H).
Qed.
Lemma forallb_false_holder (f : thread -> bool) (l : list (N * thread)) : NoDup (map fst l) ->
  forallb (fun p => f (snd p)) l = false -> exists t th, get_thread l t = Some th /\ f th = false.
Proof.
  intros ND E. assert (X : existsb (fun p => negb (f (snd p))) l = true).
  { clear ND. induction l as [|p r IH]; cbn in *; [discriminate|].
    destruct (f (snd p)); auto. }
  apply (existsb_holder (fun th => negb (f th))) in X; [|exact ND].
  destruct X as (t & th & G & F). exists t, th. split; [exact G|]. now apply negb_true_iff in F.
Qed.
Lemma put_put_same (ths : list (N * thread)) t a b : put_thread (put_thread ths t a) t b = put_thread ths t b.
Proof.
  induction ths as [|[t1 th1] r IH]; cbn [put_thread].
  - now rewrite N.eqb_refl.
  - destruct (N.eqb t t1) eqn:E; cbn [put_thread]; [now rewrite N.eqb_refl|]. rewrite E. now rewrite IH.
Qed.
Lemma put_get_same (l : list (N * thread)) t th : get_thread l t = Some th -> put_thread l t th = l.
Proof.
  induction l as [|[t' th'] r IH]; cbn; [discriminate|]. destruct (N.eqb_spec t t') as [->|NE].
  - now intros [= ->].
  - intros G. now rewrite IH.
Qed.

Lemma init_threads (cfg : wconfig (State := State)) reducers mws progs t th :
  get_thread (w_threads (init_world cfg reducers mws progs)) t = Some th ->
  (exists p, In p progs /\ th = TClient Client p PIdle /\ (t < N.of_nat (length progs))%N) \/
  (t = reducer_tid /\ th = TReducer RRecv).
Proof.
  cbn [init_world w_threads]. replace (N.of_nat (length progs)) with (0 + N.of_nat (length progs))%N by lia.
  generalize 0%N. induction progs as [|p r IH]; intros i; cbn [client_threads app get_thread length].
  - destruct (N.eqb_spec t reducer_tid); [|discriminate]. intros E; injection E as <-. now right.
  - destruct (N.eqb_spec t i) as [->|NE].
    + intros E; injection E as <-. left. exists p. repeat split; [now left|lia].
    + intros G. apply IH in G. destruct G as [(p' & I & E & L)|G]; [left|now right].
      exists p'. repeat split; [now right|exact E|lia].
Qed.
Lemma init_reducer_pc (cfg : wconfig (State := State)) reducers mws progs t pc :
  get_thread (w_threads (init_world cfg reducers mws progs)) t = Some (TReducer pc) -> pc = RRecv.
Proof. intros G. apply init_threads in G. now destruct G as [(p & _ & [=] & _)|[_ [= ->]]]. Qed.
(* with at most 100 programs the client tids stay below the reducer's *)
Lemma init_reducer (cfg : wconfig (State := State)) reducers mws progs : (length progs <= 100)%nat ->
  get_thread (w_threads (init_world cfg reducers mws progs)) reducer_tid = Some (TReducer RRecv).
Proof.
  intros L. cbn [init_world w_threads].
  assert (B : (0 + N.of_nat (length progs) <= reducer_tid)%N) by (unfold reducer_tid; lia).
  revert B. generalize 0%N. induction progs as [|p r IH]; intros i B; cbn [client_threads app get_thread length] in *.
  - now rewrite N.eqb_refl.
  - destruct (N.eqb_spec reducer_tid i); [lia|]. apply IH; lia.
Qed.
Lemma init_keys (cfg : wconfig (State := State)) reducers mws progs : (length progs <= 100)%nat ->
  NoDup (map fst (w_threads (init_world cfg reducers mws progs))).
Proof.
  intros L. cbn [init_world w_threads].
  assert (B : (0 + N.of_nat (length progs) <= reducer_tid)%N) by (unfold reducer_tid; lia).
  assert (K : forall l i t, In t (map fst (client_threads (State := State) i l)) -> (i <= t < i + N.of_nat (length l))%N).
  { induction l as [|p r IH]; intros i t; cbn; [intros []|]. intros [<-|I]; [lia|]. apply IH in I. lia. }
  revert B. generalize 0%N. induction progs as [|p r IH]; intros i B; cbn [client_threads map fst app length] in *.
  - constructor; [intros []|constructor].
  - constructor; [|apply IH; lia]. rewrite map_app, in_app_iff. intros [I|[I|[]]]; [apply K in I|]; cbn in *; lia.
Qed.

Lemma chan_tid_odd s : N.even (chan_tid s) = false.
Proof. unfold chan_tid. rewrite N.even_add_mul_2. reflexivity. Qed.
Lemma chan_tid_inj s1 s2 : chan_tid s1 = chan_tid s2 -> s1 = s2.
Proof. unfold chan_tid. lia. Qed.

End Lemmas.
