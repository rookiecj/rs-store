(* BuilderProofs.v — the builder (C17): when `build` succeeds; setters of different groups do not
   interfere, so the order of the calls matters only within a group. *)
From RS Require Import Base Builder.

Lemma build_spec b :
  match build b with
  | inl c => c = mkConfig (b_name b) (b_reducers b) (b_capacity b) (b_policy b) (b_mws b) /\
             b_capacity b <> 0 /\ b_name b <> 0%N /\ (b_reducers b <> [] \/ b_without b = true)
  | inr _ => b_capacity b = 0 \/ b_name b = 0%N \/ (b_reducers b = [] /\ b_without b = false)
  end.
Proof.
  unfold build. destruct (b_without b), (b_reducers b); cbn; auto;
    destruct (N.eqb_spec (b_name b) 0), (Nat.eqb_spec (b_capacity b) 0);
    repeat split; auto; left; discriminate.
Qed.

Lemma build_ok_iff b :
  (exists c, build b = inl c) <->
  (b_capacity b <> 0 /\ b_name b <> 0%N /\ (b_reducers b <> [] \/ b_without b = true)).
Proof.
  pose proof (build_spec b) as S. split.
  - intros [c H]. rewrite H in S. tauto.
  - intros H. destruct (build b); [eauto|]. intuition congruence.
Qed.

Lemma build_err_iff b :
  (exists e, build b = inr e) <->
  (b_capacity b = 0 \/ b_name b = 0%N \/ (b_reducers b = [] /\ b_without b = false)).
Proof.
  pose proof (build_spec b) as S. split.
  - intros [e H]. now rewrite H in S.
  - intros H. destruct (build b); [|eauto]. intuition congruence.
Qed.

Lemma build_config b c :
  build b = inl c ->
  c_name c = b_name b /\ c_reducers c = b_reducers b /\ c_capacity c = b_capacity b /\
  c_policy c = b_policy b /\ c_mws c = b_mws b.
Proof. intros H. pose proof (build_spec b) as S. rewrite H in S. destruct S as [-> _]. cbn. auto. Qed.

Lemma apply_commute b c1 c2 :
  group_of c1 <> group_of c2 ->
  apply_bcall (apply_bcall b c1) c2 = apply_bcall (apply_bcall b c2) c1.
Proof. destruct c1, c2; cbn; intros H; try reflexivity; congruence. Qed.

Definition same_on (g : group) (b b' : builder) : Prop :=
  match g with
  | GName => b_name b = b_name b'
  | GReducers => (b_reducers b, b_without b) = (b_reducers b', b_without b')
  | GCapacity => b_capacity b = b_capacity b'
  | GPolicy => b_policy b = b_policy b'
  | GMiddlewares => b_mws b = b_mws b'
  end.

Lemma apply_same_on g b b' c : same_on g b b' -> same_on g (apply_bcall b c) (apply_bcall b' c).
Proof. destruct g, c; cbn; congruence. Qed.

Lemma apply_skip g b c : group_of c <> g -> same_on g (apply_bcall b c) b.
Proof. destruct g, c; cbn; congruence. Qed.

Lemma same_on_trans g a b c : same_on g a b -> same_on g b c -> same_on g a c.
Proof. destruct g; congruence. Qed.
Lemma same_on_refl g a : same_on g a a.
Proof. destruct g; reflexivity. Qed.

(* the g-component of the result depends on the calls of group g alone, in their order *)
Lemma apply_calls_filter g : forall l b b',
  same_on g b b' ->
  same_on g (apply_bcalls b l)
            (apply_bcalls b' (filter (fun c => group_eqb (group_of c) g) l)).
Proof.
  induction l as [|c l IH]; intros b b' H; cbn [apply_bcalls fold_left filter]; [exact H|].
  destruct (group_eqb (group_of c) g) eqn:E.
  - apply IH. now apply apply_same_on.
  - apply IH. eapply same_on_trans; [|exact H]. apply apply_skip.
    intros <-. destruct (group_of c); discriminate.
Qed.

Lemma builder_ext b b' :
  (forall g, same_on g b b') -> b = b'.
Proof.
  intros H. destruct b, b'.
  generalize (H GName), (H GReducers), (H GCapacity), (H GPolicy), (H GMiddlewares).
  cbn. congruence.
Qed.

(* C17: call sequences with the same per-group subsequences give the same builder *)
Theorem order_independent b l1 l2 :
  (forall g, filter (fun c => group_eqb (group_of c) g) l1 =
             filter (fun c => group_eqb (group_of c) g) l2) ->
  apply_bcalls b l1 = apply_bcalls b l2.
Proof.
  intros H. apply builder_ext. intros g.
  pose proof (apply_calls_filter g l1 b b (same_on_refl g b)) as H1.
  pose proof (apply_calls_filter g l2 b b (same_on_refl g b)) as H2.
  rewrite H in H1. destruct g; congruence.
Qed.

Lemma apply_bcalls_app b l1 l2 : apply_bcalls b (l1 ++ l2) = apply_bcalls (apply_bcalls b l1) l2.
Proof. unfold apply_bcalls. now rewrite fold_left_app. Qed.

Lemma keep g : forall l b, Forall (fun c => group_of c <> g) l -> same_on g (apply_bcalls b l) b.
Proof.
  induction l as [|c l IH]; intros b H; [apply same_on_refl|]. inversion H.
  eapply same_on_trans; [apply (IH (apply_bcall b c)); assumption|]. now apply apply_skip.
Qed.
Lemma keep_mws : forall l b, Forall (fun c => group_of c <> GMiddlewares) l -> b_mws (apply_bcalls b l) = b_mws b.
Proof. exact (keep GMiddlewares). Qed.

Lemma last_wins g b l1 c l2 : Forall (fun c => group_of c <> g) l2 ->
  same_on g (apply_bcalls b (l1 ++ c :: l2)) (apply_bcall (apply_bcalls b l1) c).
Proof. rewrite apply_bcalls_app. apply (keep g l2 (apply_bcall (apply_bcalls b l1) c)). Qed.

Theorem last_name_wins b l1 n l2 :
  Forall (fun c => group_of c <> GName) l2 -> b_name (apply_bcalls b (l1 ++ BName n :: l2)) = n.
Proof. exact (last_wins GName b l1 (BName n) l2). Qed.
Theorem last_capacity_wins b l1 n l2 :
  Forall (fun c => group_of c <> GCapacity) l2 -> b_capacity (apply_bcalls b (l1 ++ BCapacity n :: l2)) = n.
Proof. exact (last_wins GCapacity b l1 (BCapacity n) l2). Qed.
Theorem last_policy_wins b l1 p l2 :
  Forall (fun c => group_of c <> GPolicy) l2 -> b_policy (apply_bcalls b (l1 ++ BPolicy p :: l2)) = p.
Proof. exact (last_wins GPolicy b l1 (BPolicy p) l2). Qed.

Lemma with_replaces b :
  (forall r, b_reducers (apply_bcall b (BWithReducer r)) = [r]) /\
  (forall rs, b_reducers (apply_bcall b (BWithReducers rs)) = rs) /\
  (forall m, b_mws (apply_bcall b (BWithMiddleware m)) = [m]) /\
  (forall ms, b_mws (apply_bcall b (BWithMiddlewares ms)) = ms).
Proof. repeat split. Qed.
Lemma add_appends b :
  (forall r, b_reducers (apply_bcall b (BAddReducer r)) = b_reducers b ++ [r]) /\
  (forall m, b_mws (apply_bcall b (BAddMiddleware m)) = b_mws b ++ [m]).
Proof. repeat split. Qed.

(* the without_reducer request stands until a with_reducer(s) call: nothing outside the reducer
   group touches it (defect F1: `with_capacity` reset it) *)
Lemma without_stands b l :
  Forall (fun c => group_of c <> GReducers) l ->
  b_without (apply_bcalls (apply_bcall b BWithoutReducer) l) = true.
Proof.
  intros H. pose proof (keep GReducers l (apply_bcall b BWithoutReducer) H) as K.
  now injection K.
Qed.
