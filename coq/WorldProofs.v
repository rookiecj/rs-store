(* WorldProofs.v — induction over the schedule (`reachable_ind`); every queue stays within its
   capacity (C05). *)
From RS Require Import Base Channel ChannelProofs World WorldTactics WorldStep.

Section WorldProofs.
Context {State : Type}.
Variable cfg : wconfig (State := State).
Notation world := (world (State := State)).
Notation step := (step cfg).
Notation run := (run cfg).
Implicit Types w : World.world (State := State).

Lemma run_invariant (I : world -> Prop) :
  (forall w t w', I w -> step w t = Some w' -> I w') ->
  forall sched w w', I w -> run w sched = Some w' -> I w'.
Proof.
  intros Hstep. induction sched as [|t r IH]; intros w w' Hw H; cbn in H.
  - now injection H as <-.
  - destruct (step w t) as [w1|] eqn:E; [|discriminate]. eapply IH; [|exact H]. eapply Hstep; eauto.
Qed.

Lemma run_app sched1 sched2 w :
  run w (sched1 ++ sched2) = match run w sched1 with Some w1 => run w1 sched2 | None => None end.
Proof.
  revert w. induction sched1 as [|t r IH]; intros w; cbn; [reflexivity|].
  destruct (step w t); [apply IH|reflexivity].
Qed.

Lemma reachable_run reducers mws progs w sched w' :
  reachable cfg reducers mws progs w -> run w sched = Some w' -> reachable cfg reducers mws progs w'.
Proof. intros [s0 H0] H. exists (s0 ++ sched). now rewrite run_app, H0. Qed.
Lemma reachable_step reducers mws progs w t w' :
  reachable cfg reducers mws progs w -> step w t = Some w' -> reachable cfg reducers mws progs w'.
Proof. intros R S. apply (reachable_run _ _ _ w [t] w' R). cbn. now rewrite S. Qed.

(* the step case may assume that the world it starts from is reachable: invariants proved earlier
   are then at hand without being carried along *)
Lemma reachable_ind reducers mws progs (I : world -> Prop) :
  I (init_world cfg reducers mws progs) ->
  (forall w t w', reachable cfg reducers mws progs w -> I w -> step w t = Some w' -> I w') ->
  forall w, reachable cfg reducers mws progs w -> I w.
Proof.
  intros I0 IS w [sched H].
  refine (proj2 (run_invariant (fun w => reachable cfg reducers mws progs w /\ I w) _ sched _ w _ H)).
  - intros w0 t w1 [R Iw] S. split; [eapply reachable_step|eapply IS]; eauto.
  - split; [now exists []|exact I0].
Qed.

Definition inv_bound (w : world) : Prop :=
  bounded (w_dq w) /\ cap (w_dq w) = cfg_cap cfg /\ pol (w_dq w) = cfg_pol cfg /\
  chans_all bounded (w_chans w).

Theorem step_bound w t w' : inv_bound w -> step w t = Some w' -> inv_bound w'.
Proof.
  intros (B & C & P & CH) H. step_cases H; unfold inv_bound; simp_step.
  (* a rule that touches a queue sends, receives, creates or hangs up *)
  all: try (apply send_phase_keeps in SEND; destruct SEND as (? & ? & _ & ?)).
  all: repeat split; cbn [cap pol disconnect set_q]; try congruence;
       eauto using chans_all_put, chans_all_hang_up, bounded_new, bounded_tail.
Qed.

(* C05, the bound *)
Theorem reachable_bound reducers mws progs w :
  reachable cfg reducers mws progs w -> inv_bound w.
Proof.
  apply reachable_ind; [|intros; eapply step_bound; eauto].
  repeat split; try apply bounded_new. discriminate.
Qed.

End WorldProofs.
