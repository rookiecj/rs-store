(* WorldSubs.v — subscription channels (channeled subscribers, iterators): what is received is
   what was forwarded, in order (C10, C14). *)
From RS Require Import Base Channel ChannelProofs Pipeline Script World WorldTactics WorldStep Hist WorldProofs WorldQueue.

Section WorldSubs.
Context {State : Type}.
Variable cfg : wconfig (State := State).
Notation step := (step cfg).
Notation event := (event (State := State)).
Implicit Types w : World.world (State := State).
Implicit Types h : list event.

(* the part of the history since the channel of sid was (last) created; newest first *)
Definition is_new (sid : N) (e : event) : bool :=
  match e with ESubNew s => N.eqb s sid | _ => false end.
Fixpoint since (sid : N) h : list event :=
  match h with
  | [] => []
  | e :: r => if is_new sid e then [] else e :: since sid r
  end.

Definition ev_subsend (sid : N) (e : event) : list aid :=
  match e with ESubSend s a => if N.eqb s sid then [a] else [] | _ => [] end.
Definition ev_subrecv (sid : N) (e : event) : list aid :=
  match e with ESubRecv s a => if N.eqb s sid then [a] else [] | _ => [] end.
Definition subsends sid h := flat_map (ev_subsend sid) (since sid h).
Definition subrecvs sid h := flat_map (ev_subrecv sid) (since sid h).

Lemma since_app sid l h : existsb (is_new sid) l = false -> since sid (l ++ h) = l ++ since sid h.
Proof.
  induction l as [|e r IH]; cbn; [reflexivity|]. intros E. apply orb_false_iff in E. destruct E as [E1 E2].
  rewrite E1. now rewrite IH.
Qed.

Lemma no_new_cb sid x (l : list (cb State aid)) : existsb (is_new sid) (rev (map (ECb x) l)) = false.
Proof. apply existsb_quiet, Forall_cb_events. reflexivity. Qed.
Lemma no_new_dq sid x sr dr : existsb (is_new sid) (rev (dq_events (State := State) x sr dr)) = false.
Proof. apply existsb_quiet. auto with evs. Qed.
Lemma no_new_sub sid s x sr dr : existsb (is_new sid) (rev (sub_events (State := State) s x sr dr)) = false.
Proof. apply existsb_quiet. auto with evs. Qed.

Definition qacts (c : chan (State * aid)) : list aid := map snd (acts (q c)).

Definition chan_ok (sid : N) (c : chan (State * aid)) h : Prop :=
  subseq (rev (qacts c) ++ subrecvs sid h) (subsends sid h) /\
  (pol c = Block -> subsends sid h = rev (qacts c) ++ subrecvs sid h).

Definition inv_subq w : Prop :=
  forall sid c, get_chan (w_chans w) sid = Some c -> chan_ok sid c (w_hist w).

Definition subquiet (e : event) : bool :=
  match e with ESubNew _ | ESubSend _ _ | ESubRecv _ _ => false | _ => true end.
Definition unseen (sid : N) (e : event) : Prop :=
  match e with ESubNew s | ESubSend s _ | ESubRecv s _ => s <> sid | _ => True end.

Lemma chan_ok_cons_unseen sid c e h : unseen sid e -> chan_ok sid c h -> chan_ok sid c (e :: h).
Proof.
  intros U H. unfold chan_ok, subsends, subrecvs.
  destruct e; cbn in *; try apply N.eqb_neq in U; rewrite ?U; exact H.
Qed.
Lemma chan_ok_app_unseen sid c l h : Forall (unseen sid) l -> chan_ok sid c h -> chan_ok sid c (rev l ++ h).
Proof.
  intros U H. apply Forall_rev in U. induction U; cbn [app]; auto using chan_ok_cons_unseen.
Qed.

Lemma chan_ok_cons_quiet sid c e h : subquiet e = true -> chan_ok sid c h -> chan_ok sid c (e :: h).
Proof. intros Q. apply chan_ok_cons_unseen. now destruct e. Qed.

Lemma chan_ok_new sid n p h : chan_ok sid (chan_new n p) (ESubNew sid :: h).
Proof.
  unfold chan_ok. cbn. rewrite N.eqb_refl. cbn. split; [constructor|reflexivity].
Qed.

Lemma chan_ok_same sid c c' h : qacts c' = qacts c -> pol c' = pol c -> chan_ok sid c h -> chan_ok sid c' h.
Proof. unfold chan_ok. now intros -> ->. Qed.

(* only the send that appends an action is seen *)
Lemma sub_events_unseen sid0 sid x sr dr : (sr = SDone true -> x = IExit) ->
  Forall (unseen sid0) (sub_events (State := State) sid x sr dr).
Proof.
  intros H. apply Forall_app. split; [induction dr; constructor; [exact I|auto]|].
  destruct sr as [|[]], x as [[]|]; auto. now specialize (H eq_refl).
Qed.

Lemma chan_ok_send sid c x ph c' sr dr h : send_phase c x ph = Some (c', sr, dr) ->
  chan_ok sid c h -> chan_ok sid c' (rev (sub_events sid x sr dr) ++ h).
Proof.
  intros E H. pose proof (send_phase_keeps _ _ _ _ _ _ E) as (_ & P & _).
  apply send_phase_contents in E. destruct E as [(Q & -> & ->)|[(old & Q & _ & -> & _ & PO)|(Q & NT & _)]].
  - destruct x as [[s a]|]; cbn.
    + (* an action was appended *)
      destruct H as [SUB BLK]. unfold chan_ok, subsends, subrecvs, qacts in *.
      cbn [since is_new flat_map ev_subsend ev_subrecv]. rewrite N.eqb_refl, Q, acts_app, map_app, rev_app_distr, P.
      cbn. split; [now apply subseq_take|]. intros B. now rewrite (BLK B).
    + (* an exit marker was appended *)
      revert H. apply chan_ok_same; [|exact P]. unfold qacts. rewrite Q, acts_app. now rewrite app_nil_r.
  - (* DropOldest evicted the head *)
    apply chan_ok_app_unseen; [now apply sub_events_unseen|].
    destruct H as [SUB BLK]. unfold chan_ok, qacts in *. rewrite P. rewrite Q in SUB, BLK.
    destruct old as [[s a]|]; cbn in *; [|auto]. rewrite <- app_assoc in *.
    split; [eapply subseq_remove_mid; exact SUB|congruence].
  - (* the queue is as it was *)
    apply chan_ok_app_unseen; [apply sub_events_unseen; intros ->; tauto|].
    revert H. apply chan_ok_same; [|exact P]. unfold qacts. now rewrite Q.
Qed.

Lemma chan_ok_recv sid c s a l h : q c = IAct (s, a) :: l ->
  chan_ok sid c h -> chan_ok sid (set_q c l) (ESubRecv sid a :: h).
Proof.
  intros Q [SUB BLK].
  unfold chan_ok, subsends, subrecvs, qacts in *. cbn [since is_new flat_map ev_subsend ev_subrecv].
  rewrite N.eqb_refl. rewrite Q in SUB, BLK. cbn in *. rewrite <- app_assoc in SUB, BLK. auto.
Qed.
Lemma chan_ok_recv_exit sid c l h : q c = IExit :: l -> chan_ok sid c h -> chan_ok sid (set_q c l) h.
Proof. intros Q. apply chan_ok_same; [|reflexivity]. unfold qacts. now rewrite Q. Qed.

Lemma subq_frame w w' l : w_chans w' = w_chans w -> w_hist w' = rev l ++ w_hist w ->
  (forall sid, Forall (unseen sid) l) -> inv_subq w -> inv_subq w'.
Proof.
  intros C H Q I sid c G. rewrite C in G. rewrite H. apply chan_ok_app_unseen; [apply Q|]. now apply I.
Qed.

Lemma subq_put w w' sid c' l : w_chans w' = put_chan (w_chans w) sid c' ->
  w_hist w' = rev l ++ w_hist w -> (forall sid0, sid <> sid0 -> Forall (unseen sid0) l) ->
  inv_subq w -> chan_ok sid c' (w_hist w') -> inv_subq w'.
Proof.
  intros C H U I K sid0 c0 G. rewrite C in G. apply get_put_chan_inv in G.
  destruct G as [[-> ->]|[NE G]]; [exact K|]. rewrite H. apply chan_ok_app_unseen; auto.
Qed.

Lemma subq_hang_up w w' sid : w_chans w' = hang_up (w_chans w) sid -> w_hist w' = w_hist w ->
  inv_subq w -> inv_subq w'.
Proof.
  unfold hang_up. intros C H I. destruct (get_chan (w_chans w) sid) as [c|] eqn:G.
  - apply (subq_put w w' sid (disconnect c) []); auto. rewrite H. exact (I _ _ G).
  - now apply (subq_frame w w' []).
Qed.

Lemma sub_phase_subq w sid x ph w1 sr : sub_phase w sid x ph = Some (w1, sr) -> inv_subq w -> inv_subq w1.
Proof.
  intros H I. apply sub_phase_inv in H as [(_ & -> & _)|(c & c' & dr & G & E & ->)]; [exact I|].
  eapply (subq_put w); [reflexivity|reflexivity|auto with evs|exact I|].
  exact (chan_ok_send _ _ _ _ _ _ _ _ E (I _ _ G)).
Qed.

Theorem step_subq w t w' : inv_subq w -> step w t = Some w' -> inv_subq w'.
Proof.
  intros I H. step_rules H Hh.
  (* most rules leave the channels alone and add quiet events *)
  all: try (eapply (subq_frame w); [reflexivity|exact Hh|auto with evs|exact I]; fail).
  all: try (eapply (subq_hang_up w); [reflexivity|exact Hh|exact I]; fail).
  (* the others act on one channel *)
  all: eapply (subq_put w); [reflexivity|exact Hh|auto with evs|exact I|].
  (* CS_unsub_send, RS_forward, RS_forwarded, RS_clear_send, RS_clear_sent: a send and nothing else *)
  all: try (exact (chan_ok_send _ _ _ _ _ _ _ _ SEND (I _ _ CHAN))).
  - (* CS_subscribed *) apply chan_ok_new.
  - (* CS_iter *) apply chan_ok_new.
  - (* CS_unsub_sent *)
    apply chan_ok_app_unseen; [auto with evs|]. exact (chan_ok_send _ _ _ _ _ _ _ _ SEND (I _ _ CHAN)).
  - (* CS_next_item *)
    destruct x. apply chan_ok_app_unseen; [auto with evs|]. exact (chan_ok_recv _ _ _ _ _ _ HEAD (I _ _ CHAN)).
  - (* CS_drain_item *)
    destruct x. apply chan_ok_app_unseen; [auto with evs|]. exact (chan_ok_recv _ _ _ _ _ _ HEAD (I _ _ CHAN)).
  - (* CS_next_exit *) exact (chan_ok_recv_exit _ _ _ _ HEAD (I _ _ CHAN)).
  - (* HS_deliver *) apply chan_ok_cons_quiet; [reflexivity|]. exact (chan_ok_recv _ _ _ _ _ _ HEAD (I _ _ CHAN)).
  - (* HS_exit *) apply chan_ok_cons_quiet; [reflexivity|]. exact (chan_ok_recv_exit _ _ _ _ HEAD (I _ _ CHAN)).
Qed.

Theorem reachable_subq reducers mws progs w :
  reachable cfg reducers mws progs w -> inv_subq w.
Proof. apply reachable_ind; [intros sid c G; discriminate G|intros; eapply step_subq; eauto]. Qed.

(* C10, C14: what the consumer of a channel has received so far is an in-order subsequence of what
   was forwarded to it since the channel was created; under BlockOnFull forwarded = received ++
   still queued *)
Corollary received_subseq w sid c : inv_subq w -> get_chan (w_chans w) sid = Some c ->
  subseq (subrecvs sid (w_hist w)) (subsends sid (w_hist w)).
Proof.
  intros I G. destruct (I sid c G) as [SUB _]. exact (subseq_app_r _ _ _ SUB).
Qed.

Corollary block_channel_lossless w sid c : inv_subq w -> get_chan (w_chans w) sid = Some c ->
  pol c = Block ->
  rev (subsends sid (w_hist w)) = rev (subrecvs sid (w_hist w)) ++ qacts c.
Proof.
  intros I G B. destruct (I sid c G) as [_ BLK]. rewrite (BLK B), rev_app_distr, rev_involutive. reflexivity.
Qed.

End WorldSubs.
