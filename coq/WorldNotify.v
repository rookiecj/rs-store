(* WorldNotify.v — the notification stream of direct subscribers (C03): the deliveries made
   in the reducer context are exactly, snapshot by snapshot and in the order of the snapshot,
   one call per direct subscriber of the snapshot, with the action and the state of the snapshot. *)
From RS Require Import Base Pipeline PipelineProofs Script World WorldTactics WorldStep Hist WorldProofs.

Section WorldNotify.
Context {State : Type}.
Variable cfg : wconfig (State := State).
Notation step := (step cfg).
Notation event := (event (State := State)).
Implicit Types w : World.world (State := State).
Implicit Types h : list event.

Definition delivery : Type := (N * State * aid)%type.

Definition is_direct (x : subentry) : bool := match se_kind x with SKDirect => true | _ => false end.
Definition snap_deliv (a : aid) (s : State) (snap : list subentry) : list delivery :=
  map (fun x => (se_id x, s, a)) (filter is_direct snap).

(* newest first, like the history *)
Definition ev_deliv (e : event) : list delivery :=
  match e with ECb XReducer (CbNotify sid s a) => [(sid, s, a)] | _ => [] end.
Definition ev_owed (e : event) : list delivery :=
  match e with ESnapshot a s snap => rev (snap_deliv a s snap) | _ => [] end.
Definition delivs h : list delivery := flat_map ev_deliv h.
Definition owed h : list delivery := flat_map ev_owed h.

Definition pending (pc : rpc (State := State)) : list delivery :=
  match pc with
  | RNotify a s rest _ | RNotifySend a s _ rest _ _ => snap_deliv a s rest
  | _ => []
  end.

Definition inv_notify w : Prop :=
  forall pc, get_thread (w_threads w) reducer_tid = Some (TReducer pc) ->
    books ev_owed ev_deliv (w_hist w) (pending pc).

Lemma delivs_app h1 h2 : delivs (h1 ++ h2) = delivs h1 ++ delivs h2.
Proof. apply flat_map_app. Qed.
Lemma owed_app h1 h2 : owed (h1 ++ h2) = owed h1 ++ owed h2.
Proof. apply flat_map_app. Qed.

Lemma snap_deliv_cons a s x rest :
  snap_deliv a s (x :: rest) = (if is_direct x then [(se_id x, s, a)] else []) ++ snap_deliv a s rest.
Proof. unfold snap_deliv. cbn [filter]. now destruct (is_direct x). Qed.
Lemma pending_notified a s rest n :
  pending (next_notify a s rest n) = snap_deliv a s rest.
Proof. now destruct rest. Qed.

Lemma pending_skip a s x rest n : is_direct x = false -> snap_deliv a s rest = pending (RNotify a s (x :: rest) n).
Proof. intros D. cbn [pending]. now rewrite snap_deliv_cons, D. Qed.
Lemma selector_not_direct x sel : se_kind x = SKSelector sel -> is_direct x = false.
Proof. unfold is_direct. now intros ->. Qed.
Lemma forwards_not_direct x : forwards x -> is_direct x = false.
Proof. unfold is_direct. now intros [-> | ->]. Qed.
Lemma forwarding_pending w pc a s x rest n ph : forwarding w pc a s x rest n ph -> snap_deliv a s rest = pending pc.
Proof. intros [(-> & _ & F & _)| ->]; [|reflexivity]. now apply pending_skip, forwards_not_direct. Qed.
Lemma clearing_pending pc sid rest ph : clearing_iter pc sid rest ph -> [] = pending pc.
Proof. now intros [(x & -> & _)| ->]. Qed.

Theorem step_notify w t w' : inv_notify w -> step w t = Some w' -> inv_notify w'.
Proof.
  intros I H pc' G'.
  pose proof (fun NR => step_keeps_reducer cfg w t w' _ _ H NR G') as RK.
  step_rules H Hh; rewrite Hh; clear Hh.
  (* clients and subscriber threads *)
  all: try (eapply books_quiet; [apply I, RK; congruence|reflexivity|auto with evs..]; fail).
  (* the reducer; its new pc may depend on a flag or on what is left of a list. Apart from the two
     rules below nothing is delivered and what is pending stays: an entry that is skipped is not
     direct (`pending_skip`: a selector, RS_notify_dead and the forwarding rules by
     `forwards_not_direct`/`forwarding_pending`), the release has nothing pending (`clearing_pending`) *)
  all: clear RK; simp_step; rewrite get_put_same in G'; injection G' as <-.
  all: specialize (I _ TH); rewrite ?pending_notified.
  all: try (autounfold with next_pc; repeat break_goal_match;
            (eapply books_quiet;
             [exact I
             |eauto using pending_skip, selector_not_direct, forwards_not_direct, forwarding_pending, clearing_pending
             |auto with evs..]); fail).
  - (* RS_snapshot *)
    rewrite <- (rev_involutive (snap_deliv _ _ _)). exact (books_owe ev_owed ev_deliv (ESnapshot a s (w_subs w)) _ _ eq_refl I).
  - (* RS_notify_direct *)
    apply (books_done _ _ _ _ (se_id x, s, a)); [reflexivity..|].
    cbn [pending] in I. rewrite snap_deliv_cons in I. unfold is_direct in I. now rewrite KIND in I.
Qed.

Theorem reachable_notify reducers mws progs w : reachable cfg reducers mws progs w -> inv_notify w.
Proof.
  apply reachable_ind; [|intros; eapply step_notify; eauto].
  intros pc G. now apply init_reducer_pc in G as ->.
Qed.

(* C03 (the bound on the programs is not used) *)
Theorem notify_stream reducers mws progs w pc : (length progs <= 100)%nat ->
  reachable cfg reducers mws progs w ->
  get_thread (w_threads w) reducer_tid = Some (TReducer pc) ->
  rev (owed (w_hist w)) = rev (delivs (w_hist w)) ++ pending pc.
Proof. intros _ R G. exact (reachable_notify _ _ _ _ R pc G). Qed.
End WorldNotify.
