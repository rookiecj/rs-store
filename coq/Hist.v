(* Hist.v — projections of the ghost history (newest event first); classes of events (hint db `evs`)
   and what they leave unchanged; the books of the reducer. *)
From RS Require Import Base Pipeline PipelineProofs Script World.

Section Hist.
Context {State : Type}.
Notation event := (event (State := State)).
Implicit Types h : list event.

Definition ev_enq (e : event) : list aid := match e with EEnq a => [a] | _ => [] end.
Definition ev_deq (e : event) : list aid := match e with EDeq (IAct a) => [a] | _ => [] end.
Definition ev_drop (e : event) : list aid := match e with EDrop a => [a] | _ => [] end.
Definition ev_reject (e : event) : list aid := match e with EReject a => [a] | _ => [] end.
Definition ev_write (e : event) : list (aid * State) := match e with EWrite a s => [(a, s)] | _ => [] end.

Definition enqs h := flat_map ev_enq h.
Definition deqs h := flat_map ev_deq h.
Definition drops h := flat_map ev_drop h.
Definition rejects h := flat_map ev_reject h.
Definition writes h := flat_map ev_write h.

Definition prev_state (init : State) (ws : list (aid * State)) : State :=
  match ws with [] => init | (_, s) :: _ => s end.
Definition last_written (init : State) h : State := prev_state init (writes h).

Lemma enqs_app h1 h2 : enqs (h1 ++ h2) = enqs h1 ++ enqs h2.
Proof. apply flat_map_app. Qed.
Lemma deqs_app h1 h2 : deqs (h1 ++ h2) = deqs h1 ++ deqs h2.
Proof. apply flat_map_app. Qed.
Lemma drops_app h1 h2 : drops (h1 ++ h2) = drops h1 ++ drops h2.
Proof. apply flat_map_app. Qed.
Lemma writes_app h1 h2 : writes (h1 ++ h2) = writes h1 ++ writes h2.
Proof. apply flat_map_app. Qed.

End Hist.

(* The events of a step are built from single events and a few generators (three here, `ret_events`
   and `change_events` in WorldStep.v); a property of all of them is shown once per generator. `auto with evs` proves `Forall P evs` for the events of
   any rule of WorldStep.v when P holds of each kind of event by computation. *)
Section Classes.
Context {State : Type}.
Notation event := (event (State := State)).
Variable P : event -> Prop.

Lemma Forall_cb_events x (l : list (cb State aid)) : (forall c, P (ECb x c)) -> Forall P (cb_events x l).
Proof. intros H. induction l; constructor; auto. Qed.
(* the callbacks of the pipeline, as the rules of the reducer write them: a hook's call and its on_error,
   a reducer's call *)
Lemma Forall_br_events x i a s vs : (forall i a s v, P (ECb x (CbBeforeReduce i a s v))) ->
  (forall i, P (ECb x (CbOnError i HReduce))) -> Forall P (cb_events x (br_events i a s vs)).
Proof. intros C E. apply Forall_map. now apply (hook_events_all CbBeforeReduce HReduce (fun c => P (ECb x c))). Qed.
Lemma Forall_bd_events x i a s vs : (forall i a s v, P (ECb x (CbBeforeDispatch i a s v))) ->
  (forall i, P (ECb x (CbOnError i HDispatch))) -> Forall P (cb_events x (bd_events i a s vs)).
Proof. intros C E. apply Forall_map. now apply (hook_events_all CbBeforeDispatch HDispatch (fun c => P (ECb x c))). Qed.
Lemma Forall_be_events x i a s (tr : list (list eff * list eff * verdict)) :
  (forall i a s ein eout v, P (ECb x (CbBeforeEffect i a s ein eout v))) ->
  (forall i, P (ECb x (CbOnError i HEffect))) -> Forall P (cb_events x (be_events e_id i a s tr)).
Proof. intros C E. apply Forall_map. now apply (be_events_all e_id (fun c => P (ECb x c))). Qed.
Lemma Forall_call_events x a (calls : list (nat * State * dop State eff)) :
  (forall j s d s' e, P (ECb x (CbReduce j s a d s' e))) -> Forall P (cb_events x (map (call_event e_id a) calls)).
Proof. intros C. apply Forall_map, Forall_map, Forall_forall. intros [[j s] d] _. apply C. Qed.
Lemma Forall_dq_events x sr dr :
  (forall a, P (EDrop a)) -> (forall a, P (EReject a)) -> (forall a, P (EEnq a)) -> P EEnqExit ->
  Forall P (dq_events x sr dr).
Proof.
  intros D R E X. apply Forall_app. split.
  - destruct sr as [|[]]; induction dr; constructor; auto.
  - destruct sr as [|[]], x; auto.
Qed.
Lemma Forall_sub_events sid (x : item (State * aid)) sr dr :
  P (ESubDrop sid) -> (forall a, P (ESubSend sid a)) -> Forall P (sub_events sid x sr dr).
Proof.
  intros D S. apply Forall_app. split.
  - induction dr; constructor; auto.
  - destruct sr as [|[]], x as [[]|]; auto.
Qed.
(* an exit is never announced as a send *)
Lemma Forall_sub_exit sid sr dr : P (ESubDrop sid) -> Forall P (sub_events sid IExit sr dr).
Proof. intros D. apply Forall_app. split; [induction dr; constructor; auto|destruct sr as [|[]]; auto]. Qed.
Lemma Forall_app_intro (l1 l2 : list event) : Forall P l1 -> Forall P l2 -> Forall P (l1 ++ l2).
Proof. intros. apply Forall_app. auto. Qed.
Lemma Forall_if (b : bool) (l1 l2 : list event) : Forall P l1 -> Forall P l2 -> Forall P (if b then l1 else l2).
Proof. destruct b; auto. Qed.
End Classes.

Create HintDb evs discriminated.
#[export] Hint Resolve Forall_app_intro Forall_if Forall_cb_events Forall_br_events Forall_bd_events
  Forall_be_events Forall_call_events Forall_dq_events Forall_sub_events Forall_sub_exit : evs.
(* the leaves: P e holds by computation *)
#[export] Hint Extern 1 => exact I : evs.

Lemma flat_map_quiet {A X} (f : A -> list X) l h : Forall (fun e => f e = []) l -> flat_map f (rev l ++ h) = flat_map f h.
Proof.
  intros Q. apply Forall_rev in Q. induction Q as [|e r E _ IH]; [reflexivity|].
  cbn. now rewrite E.
Qed.
Lemma flat_map_nil {A B} (g : A -> list B) l : Forall (fun x => g x = []) l -> flat_map g l = [].
Proof. induction 1 as [|e r E _ IH]; [reflexivity|]. cbn. now rewrite E. Qed.

Section HistCb.
Context {State : Type}.
Lemma enqs_cb x (l : list (cb State aid)) : enqs (rev (map (ECb x) l)) = [].
Proof. apply flat_map_nil, Forall_rev, Forall_cb_events. reflexivity. Qed.
Lemma deqs_cb x (l : list (cb State aid)) : deqs (rev (map (ECb x) l)) = [].
Proof. apply flat_map_nil, Forall_rev, Forall_cb_events. reflexivity. Qed.
Lemma drops_cb x (l : list (cb State aid)) : drops (rev (map (ECb x) l)) = [].
Proof. apply flat_map_nil, Forall_rev, Forall_cb_events. reflexivity. Qed.
Lemma writes_cb x (l : list (cb State aid)) : writes (rev (map (ECb x) l)) = [].
Proof. apply flat_map_nil, Forall_rev, Forall_cb_events. reflexivity. Qed.
End HistCb.

(* Books kept over a history (newest first): what the events owe, oldest first, is what they have
   done followed by p, what is still to do. WorldNotify.v and WorldForward.v keep such books for the
   reducer, p being read off its pc. *)
Section Books.
Context {A X : Type} (owe done : A -> list X).
Definition books (h : list A) (p : list X) : Prop := rev (flat_map owe h) = rev (flat_map done h) ++ p.

Lemma books_quiet l h p p' : books h p -> p' = p ->
  Forall (fun e => owe e = []) l -> Forall (fun e => done e = []) l -> books (rev l ++ h) p'.
Proof. intros B -> O D. unfold books. now rewrite !flat_map_quiet. Qed.
Lemma books_owe e h p : done e = [] -> books h p -> books (e :: h) (p ++ rev (owe e)).
Proof. intros D B. unfold books in *. cbn [flat_map]. rewrite D, rev_app_distr, B. apply eq_sym, app_assoc. Qed.
Lemma books_done e h x p : owe e = [] -> done e = [x] -> books h (x :: p) -> books (e :: h) p.
Proof. intros O D B. unfold books in *. cbn [flat_map]. rewrite O, D. cbn [app rev]. now rewrite B, <- app_assoc. Qed.
End Books.
Lemma forallb_rev {A} (q : A -> bool) l : Forall (fun e => q e = true) l -> forallb q (rev l) = true.
Proof. intros Q. apply forallb_forall. intros e I. apply in_rev in I. revert e I. now apply Forall_forall. Qed.
Lemma existsb_quiet {A} (f : A -> bool) l : Forall (fun e => f e = false) l -> existsb f (rev l) = false.
Proof. intros Q. apply Forall_rev in Q. induction Q as [|e r E _ IH]; cbn; [|rewrite E]; auto. Qed.
Lemma filter_quiet {A} (f : A -> bool) l h : Forall (fun e => f e = false) l -> filter f (rev l ++ h) = filter f h.
Proof.
  intros Q. apply Forall_rev in Q.
  induction Q as [|e r E _ IH]; [reflexivity|]. cbn. now rewrite E.
Qed.
