(* WorldFwdFinal.v — once the reducer has left its loop (shutdown release in progress or over)
   nothing is forwarded to any subscription channel any more (C04 "channeled subscribers flushed ...
   from then on nothing changes", C10 "nothing is delivered afterwards", C14 "after the store is
   stopped it yields the remaining pairs"): the forwarded stream of every subscriber is final.
   Every program, every schedule from a world whose worker ids are fresh (`fresh_ok`: every reachable
   world of at most 100 programs). *)
From RS Require Import Base Script World WorldTactics Hist WorldStep WorldProofs WorldStop WorldSubs WorldEffects.

Section WorldFwdFinal.
Context {State : Type}.
Variable cfg : wconfig (State := State).
Notation step := (step cfg).
Notation run := (run cfg).
Notation event := (event (State := State)).
Implicit Types w : World.world (State := State).
Implicit Types h : list event.

(* `subsends` without its `since`: over the whole history *)
Definition fwd (sid : N) h : list aid := flat_map (ev_subsend sid) h.

(* the pcs of `post_exit` (WorldStop.v) *)
Definition releasing_pc (pc : rpc (State := State)) : bool :=
  match pc with
  | RClearLock | RClear _ | RClearCtx _ _ | RClearJoin _ _ | RClearIterSend _ _ _ | RDone => true
  | _ => false
  end.
Definition releasing w : Prop :=
  exists pc, get_thread (w_threads w) reducer_tid = Some (TReducer pc) /\ releasing_pc pc = true.

Lemma releasing_at w pc : releasing w -> get_thread (w_threads w) reducer_tid = Some (TReducer pc) ->
  releasing_pc pc = true.
Proof. intros (pc0 & G0 & R0) G. congruence. Qed.
Lemma releasing_set_rpc w pc : releasing_pc pc = true -> releasing (set_rpc w pc).
Proof. intros R. exists pc. split; [apply get_put_same|exact R]. Qed.
Lemma releasing_cleared w rest : releasing (cleared w rest).
Proof. apply releasing_set_rpc. now destruct rest. Qed.
Lemma forwarding_pc w pc a s x rest n ph : forwarding w pc a s x rest n ph -> releasing_pc pc = false.
Proof. now intros [(-> & _)| ->]. Qed.

Lemma fin_other w w' t th evs : get_thread (w_threads w) t = Some th -> (forall pc, th <> TReducer pc) ->
  w_hist w' = rev evs ++ w_hist w -> (forall sid, Forall (fun e => ev_subsend sid e = []) evs) ->
  (t <> reducer_tid -> get_thread (w_threads w') reducer_tid = get_thread (w_threads w) reducer_tid) ->
  releasing w -> releasing w' /\ forall sid, fwd sid (w_hist w') = fwd sid (w_hist w).
Proof.
  intros G N E Q K (pc & GR & R). split; [|intros sid; rewrite E; apply flat_map_quiet, Q].
  exists pc. split; [|exact R]. rewrite K; [exact GR|]. intros ->. rewrite GR in G. injection G as <-. now apply (N pc).
Qed.
Lemma fin_reducer w w' pc evs : get_thread (w_threads w) reducer_tid = Some (TReducer pc) ->
  w_hist w' = rev evs ++ w_hist w -> (releasing_pc pc = true -> (forall sid, Forall (fun e => ev_subsend sid e = []) evs) /\ releasing w') ->
  releasing w -> releasing w' /\ forall sid, fwd sid (w_hist w') = fwd sid (w_hist w).
Proof.
  intros G E K R. destruct (K (releasing_at w pc R G)) as [Q R']. split; [exact R'|].
  intros sid. rewrite E. apply flat_map_quiet, Q.
Qed.

Theorem step_fin w t w' : (1000 <= w_next_tid w)%N -> releasing w -> step w t = Some w' ->
  releasing w' /\ forall sid, fwd sid (w_hist w') = fwd sid (w_hist w).
Proof.
  intros NT R H. pose proof (step_other_reducer cfg w t w' NT H) as K. step_rules H Hh.
  (* clients and subscribers' threads *)
  all: try (eapply fin_other; [exact TH|discriminate|exact Hh|auto with evs|exact K|exact R]; fail).
  (* the reducer: inside a notification it is not in the release *)
  all: eapply fin_reducer; [exact TH|exact Hh| |exact R]; intros RP;
       try (rewrite (forwarding_pc _ _ _ _ _ _ _ _ AT) in RP); try discriminate RP.
  all: split; [auto with evs|auto using releasing_cleared, releasing_set_rpc].
Qed.

(* C04; C10 and C14 read it over `subsends` (WorldFwdSince.v) *)
Theorem forwarded_is_final : forall sched w w', fresh_ok w -> releasing w -> run w sched = Some w' ->
  releasing w' /\ forall sid, fwd sid (w_hist w') = fwd sid (w_hist w).
Proof.
  intros sched w w' F R H.
  refine (proj2 (run_invariant cfg (fun w1 => fresh_ok w1 /\ releasing w1 /\ forall sid, fwd sid (w_hist w1) = fwd sid (w_hist w))
                   _ sched w w' _ H)); [|auto].
  intros w0 t w1 (F0 & R0 & E0) S. destruct (step_fin w0 t w1 (proj1 (proj2 F0)) R0 S) as [R1 E1].
  split; [exact (step_fresh cfg w0 t w1 F0 S)|split; [exact R1|]]. intros sid. now rewrite E1.
Qed.

(* C04: in a stopped world the pool is idle, so the reducer stands at RDone *)
Lemma stopped_releasing w : stopped w -> releasing w.
Proof.
  intros (_ & [[pc G] _] & PI & _). exists pc. split; [exact G|].
  pose proof (pool_idle_reducer w pc PI G) as E. subst pc. reflexivity.
Qed.

End WorldFwdFinal.
