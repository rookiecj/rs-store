(* WorldInv.v — the state is the last value written, and reads return it (C08). *)
From RS Require Import Base World WorldStep Hist WorldProofs.

Section WorldInv.
Context {State : Type}.
Variable cfg : wconfig (State := State).
Notation step := (step cfg).
Notation event := (event (State := State)).
Implicit Types w : World.world (State := State).
Implicit Types h : list event.

Definition init := cfg_init cfg.

Fixpoint reads_ok h : Prop :=
  match h with
  | [] => True
  | ERet _ CGetState (RState s) :: r => s = last_written init r /\ reads_ok r
  | _ :: r => reads_ok r
  end.

Definition inv_state w : Prop :=
  w_state w = last_written init (w_hist w) /\ reads_ok (w_hist w).

Definition squiet (e : event) : Prop :=
  match e with EWrite _ _ | ERet _ _ (RState _) => False | _ => True end.

Lemma state_quiet l h s : Forall squiet l -> s = last_written init h -> reads_ok h ->
  s = last_written init (rev l ++ h) /\ reads_ok (rev l ++ h).
Proof.
  intros Q -> R. apply Forall_rev in Q.
  induction Q as [|e l' E _ IH]; [auto|]. cbn [app].
  destruct e; try contradiction; auto. destruct c; auto. destruct r; try contradiction; auto.
Qed.

Theorem step_state w t w' : inv_state w -> step w t = Some w' -> inv_state w'.
Proof.
  intros [S R] H. unfold inv_state. step_rules H Hh; rewrite Hh; clear Hh.
  (* every rule but the write-back and the return of a call only adds quiet events *)
  all: try (apply state_quiet; [auto with evs|exact S|exact R]; fail).
  - (* CS_call *)
    destruct prog as [|[] ?]; cbn [ret_events call_result]; try contradiction;
      try (apply state_quiet; [auto with evs|exact S|exact R]; fail).
    cbn. auto.
  - (* RS_write *) auto.
Qed.

Theorem reachable_state reducers mws progs w :
  reachable cfg reducers mws progs w -> inv_state w.
Proof. apply reachable_ind; [now split|intros; eapply step_state; eauto]. Qed.

End WorldInv.
