(* WorldRegistered.v — the registry over histories (C03, C09; C07's claim about snapshots cites
   it): a subscriber whose registration call has returned and for which no unsubscribing call has
   been invoked (`reg_live`) is in every snapshot the reducer takes, and in the registry until the shutdown release is over - for every
   program and every schedule. Together with WorldNotify (the calls made in the reducer context
   are, snapshot by snapshot, one per direct subscriber of the snapshot) and WorldSnap (the
   snapshots are exactly the notifying actions) this is "a subscriber registered for the whole run
   is called exactly once for each notifying action". *)
From RS Require Import Base Pipeline Script World WorldTactics WorldStep Hist WorldProofs WorldQueue WorldEffects WorldSids.

Section WorldRegistered.
Context {State : Type}.
Variable cfg : wconfig (State := State).
Notation step := (step cfg).
Notation event := (event (State := State)).
Notation thread := (thread (State := State)).
Implicit Types w : World.world (State := State).
Implicit Types h : list event.

(* calls that may remove the registry entries of sid: unsubscribe, and - for iterators - the
   calls that release the iterator once its stream has ended *)
Definition unsub_call (sid : N) (c : call) : bool :=
  match c with
  | CUnsubscribe s | CNext s | CDrain s | CDropIter s => N.eqb s sid
  | _ => false
  end.
Definition reg_call (sid : N) (c : call) : bool := existsb (N.eqb sid) (reg_sid c).
Definition ev_added (sid : N) (e : event) : bool :=
  match e with ERet _ c _ => reg_call sid c | _ => false end.
Definition ev_unsub (sid : N) (e : event) : bool :=
  match e with EInv _ c => unsub_call sid c | _ => false end.
Definition reg_live (sid : N) h : bool :=
  existsb (ev_added sid) h && negb (existsb (ev_unsub sid) h).

Fixpoint snaps_ok h : Prop :=
  match h with
  | [] => True
  | e :: r =>
      match e with
      | ESnapshot _ _ snap => forall sid, reg_live sid r = true -> In sid (ids snap)
      | _ => True
      end /\ snaps_ok r
  end.

Definition reducer_done w : Prop := get_thread (w_threads w) reducer_tid = Some (TReducer RDone).

Definition inv_reg w : Prop :=
  forall sid, reg_live sid (w_hist w) = true -> In sid (ids (w_subs w)) \/ reducer_done w.

(* a registration call, once invoked, is at the registration point of its identifier; no other
   call is ever at one *)
Definition radd_ok (th : thread) : Prop :=
  match th with
  | TClient _ (c :: _) pc =>
      match reg_sid c with
      | s :: _ => pc = PIdle \/ (exists k v, pc = PTaskStart k v) \/ (exists k, pc = PSubsAdd (mkSub s k))
      | [] => match pc with PSubsAdd _ => False | _ => True end
      end
  | TClient _ [] (PSubsAdd _) => False
  | _ => True
  end.

(* a thread that may remove the entries of sid has invoked an unsubscribing call for sid *)
Definition unsubbing (th : thread) : option N :=
  match th with
  | TClient _ _ (PUnsubLock s) | TClient _ _ (PNextRecv s) => Some s
  | _ => None
  end.
Definition inv_ui w : Prop :=
  forall t th s, get_thread (w_threads w) t = Some th -> unsubbing th = Some s ->
    existsb (ev_unsub s) (w_hist w) = true.

Definition rquiet (e : event) : bool :=
  match e with ERet _ _ _ | EInv _ _ | ESnapshot _ _ _ => false | _ => true end.

Lemma rquiet_app sid l h : forallb rquiet l = true ->
  existsb (ev_added sid) (l ++ h) = existsb (ev_added sid) h /\
  existsb (ev_unsub sid) (l ++ h) = existsb (ev_unsub sid) h.
Proof.
  induction l as [|e r IH]; cbn [app forallb existsb]; [auto|].
  intros E. apply andb_true_iff in E. destruct E as [E1 E2].
  destruct e; try discriminate; exact (IH E2).
Qed.
Lemma rquiet_cb x (l : list (cb State aid)) : forallb rquiet (rev (map (ECb x) l)) = true.
Proof. apply forallb_rev, Forall_cb_events. reflexivity. Qed.
Lemma rquiet_dq x sr dr : forallb rquiet (rev (dq_events (State := State) x sr dr)) = true.
Proof. apply forallb_rev. auto with evs. Qed.
Lemma rquiet_sub s x sr dr : forallb rquiet (rev (sub_events (State := State) s x sr dr)) = true.
Proof. apply forallb_rev. auto with evs. Qed.

Lemma existsb_mono {A} (f : A -> bool) (l1 l2 : list A) : existsb f l2 = true -> existsb f (l1 ++ l2) = true.
Proof. intros E. rewrite existsb_app, E. apply orb_true_r. Qed.

(* weaker than rquiet: an invocation, or the return of a call that registers nothing, makes no
   identifier live *)
Definition lquiet (e : event) : bool :=
  match e with
  | ERet _ c _ => match reg_sid c with [] => true | _ => false end
  | ESnapshot _ _ _ => false
  | _ => true
  end.
Lemma lquiet_live sid l h : forallb lquiet l = true -> reg_live sid (l ++ h) = true -> reg_live sid h = true.
Proof.
  unfold reg_live. induction l as [|e r IH]; cbn [app forallb existsb]; [auto|].
  intros E. apply andb_true_iff in E. destruct E as [E1 E2]. intros L. apply IH; [exact E2|].
  apply andb_true_iff in L. destruct L as [L1 L2]. apply negb_true_iff in L2.
  apply orb_false_iff in L2. destruct L2 as [_ L2]. rewrite L2, andb_true_r.
  destruct e; cbn [ev_added] in L1; try exact L1. cbn [lquiet] in E1. unfold reg_call in L1.
  destruct (reg_sid c); [exact L1|discriminate E1].
Qed.
Lemma lquiet_snaps l h : forallb lquiet l = true -> snaps_ok h -> snaps_ok (l ++ h).
Proof.
  induction l as [|e r IH]; cbn [app forallb]; [auto|].
  intros E S. apply andb_true_iff in E. destruct E as [E1 E2]. split; [|auto].
  destruct e; try discriminate; exact I.
Qed.

Definition inv_rs w : Prop := inv_reg w /\ snaps_ok (w_hist w).

(* l is the new part of the history, newest first (a step's `rev evs`; `forallb_rev`) *)
Lemma rs_ext w0 w1 l : w_hist w1 = l ++ w_hist w0 -> forallb lquiet l = true ->
  (forall sid, In sid (ids (w_subs w0)) -> In sid (ids (w_subs w1))) ->
  (reducer_done w0 -> reducer_done w1) -> inv_rs w0 -> inv_rs w1.
Proof.
  intros E Q S D [I SN]. split; [|rewrite E; now apply lquiet_snaps].
  intros sid L. rewrite E in L. apply (lquiet_live sid l _ Q) in L. destruct (I sid L); auto.
Qed.

Lemma rquiet_lquiet l : forallb rquiet l = true -> forallb lquiet l = true.
Proof.
  induction l as [|e r IH]; cbn [forallb]; [auto|]. intros E. apply andb_true_iff in E. destruct E as [E1 E2].
  rewrite (IH E2). destruct e; try discriminate; reflexivity.
Qed.
Lemma rquiet_snaps l h : forallb rquiet l = true -> snaps_ok h -> snaps_ok (l ++ h).
Proof. intros Q. now apply lquiet_snaps, rquiet_lquiet. Qed.

(* `inv_rs` through a single phase of a send; `step_rs` does not go through these two *)
Lemma dq_phase_rs w x ph w1 sr : dq_phase w x ph = Some (w1, sr) -> inv_rs w -> inv_rs w1.
Proof.
  intros H. apply dq_phase_inv in H. destruct H as (dq' & dr & _ & ->).
  apply (rs_ext w _ (rev (dq_events x sr dr))); auto. apply rquiet_lquiet, rquiet_dq.
Qed.
Lemma sub_phase_rs w s x ph w1 sr : sub_phase w s x ph = Some (w1, sr) -> inv_rs w -> inv_rs w1.
Proof.
  intros H. apply sub_phase_inv in H.
  destruct H as [(_ & -> & _)|(c & c' & dr & _ & _ & ->)]; [auto|].
  apply (rs_ext w _ (rev (sub_events s x sr dr))); auto. apply rquiet_lquiet, rquiet_sub.
Qed.

Definition past_add (pc : cpc) : Prop :=
  match pc with PIdle | PTaskStart _ _ | PSubsAdd _ => False | _ => True end.

Lemma radd_past r c rest pc : radd_ok (TClient r (c :: rest) pc) -> past_add pc -> reg_sid c = [].
Proof. cbn. destruct (reg_sid c); [reflexivity|]. intros [->|[(k & v & ->)|(k & ->)]] []. Qed.
Lemma in_call_radd th : in_call th -> radd_ok th.
Proof.
  destruct th as [r [|c rest] pc| |]; try exact (fun _ => I);
    intros [->|[(k & v & -> & _)|(c0 & rest0 & done & E & W)]]; try discriminate E; try exact I.
  1,2: cbn; destruct (reg_sid c); eauto.
  injection E as <- <-. cbn [radd_ok].
  destruct c; cbn [reg_sid invoke_pc] in *; try destruct (memN _ _);
    destruct pc; try exact I; try discriminate W; try (destruct W; discriminate); eauto.
Qed.

Lemma ui_ext w0 w1 l : w_hist w1 = l ++ w_hist w0 ->
  (forall t th s, get_thread (w_threads w1) t = Some th -> unsubbing th = Some s ->
     (exists th0, get_thread (w_threads w0) t = Some th0 /\ unsubbing th0 = Some s) \/
     existsb (ev_unsub s) l = true) ->
  inv_ui w0 -> inv_ui w1.
Proof.
  intros E H I t th s G U. rewrite E, existsb_app. destruct (H t th s G U) as [(th0 & G0 & U0)| ->]; [|reflexivity].
  rewrite (I t th0 s G0 U0). apply orb_true_r.
Qed.

(* likewise for `inv_ui` *)
Lemma dq_phase_ui w x ph w1 sr : dq_phase w x ph = Some (w1, sr) -> inv_ui w -> inv_ui w1.
Proof.
  intros H. apply dq_phase_inv in H. destruct H as (dq' & dr & _ & ->).
  apply (ui_ext w _ (rev (dq_events x sr dr))); [reflexivity|]. intros t th s G U. left. eauto.
Qed.
Lemma sub_phase_ui w s0 x ph w1 sr : sub_phase w s0 x ph = Some (w1, sr) -> inv_ui w -> inv_ui w1.
Proof.
  intros H. apply sub_phase_inv in H.
  destruct H as [(_ & -> & _)|(c & c' & dr & _ & _ & ->)]; [auto|].
  apply (ui_ext w _ (rev (sub_events s0 x sr dr))); [reflexivity|]. intros t th s G U. left. eauto.
Qed.

(* the same per thread: the table and the history can then be looked at one after the other *)
Definition ui_ok h (th : thread) : Prop := forall s, unsubbing th = Some s -> existsb (ev_unsub s) h = true.

Lemma ui_all w : inv_ui w <-> threads_all (ui_ok (w_hist w)) (w_threads w).
Proof. split; intros H t th; [intros G s U; exact (H t th s G U)|intros s G U; exact (H t th G s U)]. Qed.
Lemma ui_ok_app l h th : ui_ok h th -> ui_ok (l ++ h) th.
Proof. intros U s E. apply existsb_mono. auto. Qed.
Lemma ui_invoke h t r prog done c : ui_ok (EInv t c :: h) (TClient r prog (invoke_pc done c)).
Proof.
  intros s. destruct c; cbn; try destruct (memN _ _); intros [= <-]; now rewrite N.eqb_refl.
Qed.

Theorem step_ui w t w' : inv_ui w -> step w t = Some w' -> inv_ui w'.
Proof.
  intros IV H. apply ui_all. apply ui_all in IV.
  assert (T : forall l, threads_all (ui_ok (l ++ w_hist w)) (w_threads w))
    by (intros l t0 th G; apply ui_ok_app, (IV _ _ G)).
  step_rules H Hh; rewrite Hh; clear Hh; simp_step.
  all: repeat apply threads_all_put; try apply T.
  (* most rules lead to no point from which the registry is changed *)
  all: try (intros ? [=]; fail).
  all: try (destruct stop; intros ? [=]; fail).
  - (* CS_invoke *) apply ui_invoke.
  - (* CS_next_exit: the same identifier *) exact (T [] _ _ TH).
  - (* CS_next_end *) exact (T [] _ _ TH).
Qed.

Lemma reg_sid_single c s l0 : reg_sid c = s :: l0 -> l0 = [].
Proof. destruct c; intros E; try discriminate; now injection E. Qed.

Lemma rs_add w w1 t c res se l0 : w_hist w1 = ERet t c res :: w_hist w -> w_subs w1 = w_subs w ++ [se] ->
  reg_sid c = se_id se :: l0 -> (reducer_done w -> reducer_done w1) -> inv_rs w -> inv_rs w1.
Proof.
  intros E S RS D [I SN]. split; [|rewrite E; cbn [snaps_ok]; auto].
  intros sid L. rewrite E in L. unfold reg_live in L. cbn [existsb ev_added ev_unsub] in L.
  rewrite S, ids_app. unfold reg_call in L. rewrite RS, (reg_sid_single _ _ _ RS) in L. cbn [existsb] in L.
  destruct (N.eqb_spec sid (se_id se)) as [EQ|NE].
  - left. apply in_or_app. right. left. symmetry. exact EQ.
  - destruct (I sid L) as [X|X]; [left; apply in_or_app; now left|right; auto].
Qed.

Lemma ids_remove_other l s sid : sid <> s -> In sid (ids l) -> In sid (ids (remove_sub l s)).
Proof.
  unfold remove_sub. intros NE. induction l as [|x r IH]; cbn [map filter In]; [auto|].
  intros [E|X].
  - destruct (N.eqb_spec (se_id x) s) as [E2|E2]; [congruence|]. now left.
  - destruct (negb (se_id x =? s)%N); [right|]; auto.
Qed.

Lemma rs_remove w0 w1 l sid0 : w_hist w1 = l ++ w_hist w0 -> forallb lquiet l = true ->
  w_subs w1 = remove_sub (w_subs w0) sid0 -> existsb (ev_unsub sid0) (w_hist w0) = true ->
  (reducer_done w0 -> reducer_done w1) -> inv_rs w0 -> inv_rs w1.
Proof.
  intros E Q S U D [I SN]. split; [|rewrite E; now apply lquiet_snaps].
  intros sid L. rewrite E in L. apply (lquiet_live sid l _ Q) in L.
  destruct (N.eq_dec sid sid0) as [->|NE].
  - unfold reg_live in L. rewrite U in L. rewrite andb_false_r in L. discriminate L.
  - destruct (I sid L) as [X|X]; [left; rewrite S; now apply ids_remove_other|right; auto].
Qed.

Lemma rs_snapshot w w1 a s : get_thread (w_threads w) reducer_tid = Some (TReducer (RSnapshot a s)) ->
  w_hist w1 = ESnapshot a s (w_subs w) :: w_hist w -> w_subs w1 = w_subs w -> inv_rs w -> inv_rs w1.
Proof.
  intros G E S [I SN].
  assert (A : forall sid, reg_live sid (w_hist w) = true -> In sid (ids (w_subs w))).
  { intros sid L. destruct (I sid L) as [X|X]; [exact X|]. unfold reducer_done in X. congruence. }
  split.
  - intros sid L. rewrite E in L. left. rewrite S. apply A. exact L.
  - rewrite E. split; [exact A|exact SN].
Qed.

Lemma rs_done w0 w1 l : w_hist w1 = l ++ w_hist w0 -> forallb lquiet l = true ->
  reducer_done w1 -> inv_rs w0 -> inv_rs w1.
Proof.
  intros E Q D [I SN]. split; [|rewrite E; now apply lquiet_snaps]. intros sid _. now right.
Qed.

(* the end of the shutdown release, or not yet *)
Lemma rs_cleared w w' evs rest : w_hist w' = rev evs ++ w_hist w -> Forall (fun e => lquiet e = true) evs ->
  w_subs w' = match rest with [] => [] | _ => w_subs w end ->
  get_thread (w_threads w') reducer_tid = Some (TReducer (next_clear rest)) ->
  (reducer_done w -> reducer_done w') -> inv_rs w -> inv_rs w'.
Proof.
  intros E Q S G D. destruct rest.
  - exact (rs_done w w' _ E (forallb_rev _ _ Q) G).
  - apply (rs_ext w w' _ E (forallb_rev _ _ Q)); [rewrite S; auto|exact D].
Qed.

Lemma step_done w t w' : fresh_ok w -> reducer_done w -> step w t = Some w' -> reducer_done w'.
Proof.
  unfold reducer_done. intros (_ & F & _) D H. destruct (N.eq_dec t reducer_tid) as [->|NE].
  - unfold World.step in H. rewrite D in H. discriminate H.
  - now rewrite (step_other_reducer cfg w t w' F H NE).
Qed.

Lemma lquiet_ret t r prog pc res : radd_ok (TClient r prog pc) -> past_add pc ->
  Forall (fun e => lquiet e = true) (ret_events (State := State) t prog res).
Proof.
  intros O C. destruct prog as [|c rest]; constructor; [|constructor]. cbn. now rewrite (radd_past _ _ _ _ O C).
Qed.
Lemma radd_at_add r prog se : radd_ok (TClient r prog (PSubsAdd se)) ->
  exists c rest l0, prog = c :: rest /\ reg_sid c = se_id se :: l0.
Proof.
  destruct prog as [|c rest]; cbn; [easy|]. destruct (reg_sid c) as [|s l0] eqn:RS; [easy|].
  intros [E|[(? & ? & E)|(k & E)]]; try discriminate E. injection E as ->. now exists c, rest, l0.
Qed.

Theorem step_rs w t w' : fresh_ok w -> threads_all radd_ok (w_threads w) -> inv_ui w -> inv_rs w ->
  step w t = Some w' -> inv_rs w'.
Proof.
  intros F T UI IV H. pose proof (fun D => step_done _ _ _ F D H) as D. step_rules H Hh; try open_at AT.
  (* where the thread is past a registration point *)
  all: try (assert (RQ : forall res, Forall (fun e => lquiet e = true) (ret_events t prog res))
              by (intro; eapply lquiet_ret; [exact (T _ _ TH)|exact I])).
  (* the registry stays; no registration returns, no snapshot *)
  all: try (apply (rs_ext w _ _ Hh); [apply forallb_rev; auto with evs|auto|exact D|exact IV]; fail).
  (* an unsubscribing call removes the entries of its identifier *)
  all: try (eapply (rs_remove w _ _ _ Hh); [apply forallb_rev; auto with evs|reflexivity
            |eapply UI; [exact TH|reflexivity]|exact D|exact IV]; fail).
  (* the shutdown release *)
  all: try (eapply rs_cleared; [exact Hh|auto with evs|reflexivity|apply get_put_same|exact D|exact IV]; fail).
  - (* CS_add: a registration returns *)
    edestruct radd_at_add as (c & rest & l0 & E & RS); [exact (T _ _ TH)|]. subst.
    eapply rs_add; [exact Hh|reflexivity|exact RS|exact D|exact IV].
  - (* RS_snapshot *) eapply rs_snapshot; [exact TH|exact Hh|reflexivity|exact IV].
  - (* RS_clear_end *) apply (rs_done w _ [] Hh eq_refl); [apply get_put_same|exact IV].
Qed.

Definition inv_R w : Prop := fresh_ok w /\ threads_all radd_ok (w_threads w) /\ inv_ui w /\ inv_rs w.

Lemma init_R reducers mws progs : (length progs <= 100)%nat -> inv_R (init_world cfg reducers mws progs).
Proof.
  intros L. split; [apply (init_fresh cfg reducers mws progs L)|]. split; [|split; [|split]].
  - apply init_threads_all; [exact I|intros p _; apply in_call_radd; now left].
  - apply ui_all, init_threads_all; [|intros p _]; intros s [=].
  - intros sid L0. discriminate L0.
  - exact I.
Qed.

Theorem reachable_R reducers mws progs w : (length progs <= 100)%nat ->
  reachable cfg reducers mws progs w -> inv_R w.
Proof.
  intros L. apply reachable_ind; [now apply init_R|]. intros w0 t w1 R (F & T & UI & RS) ST.
  split; [eapply step_fresh; eauto|split; [|split; [eapply step_ui; eauto|eapply step_rs; eauto]]].
  eapply threads_all_impl; [|exact in_call_radd]. eapply reachable_in_call, reachable_step; eauto.
Qed.

Lemma snaps_ok_app h2 h1 : snaps_ok (h2 ++ h1) -> snaps_ok h1.
Proof. induction h2 as [|e r IH]; cbn [app snaps_ok]; [auto|]. intros [_ S]. auto. Qed.

(* C03_whole_run_subscriber_in_every_snapshot, C09_notified_while_registered: h1 is the history
   when the snapshot was taken *)
Theorem registered_in_snapshot reducers mws progs w h2 a s snap h1 sid : (length progs <= 100)%nat ->
  reachable cfg reducers mws progs w ->
  w_hist w = h2 ++ ESnapshot a s snap :: h1 -> reg_live sid h1 = true -> In sid (ids snap).
Proof.
  intros L R E LV. destruct (reachable_R _ _ _ _ L R) as (_ & _ & _ & _ & SN).
  rewrite E in SN. apply snaps_ok_app in SN. destruct SN as [A _]. auto.
Qed.

(* C09_registry_keeps_registered: nobody else's unsubscribe, and nothing but the shutdown, removes a
   live entry *)
Theorem registered_in_registry reducers mws progs w sid : (length progs <= 100)%nat ->
  reachable cfg reducers mws progs w -> reg_live sid (w_hist w) = true ->
  In sid (ids (w_subs w)) \/ get_thread (w_threads w) reducer_tid = Some (TReducer RDone).
Proof. intros L R LV. destruct (reachable_R _ _ _ _ L R) as (_ & _ & _ & I & _). exact (I sid LV). Qed.

End WorldRegistered.
