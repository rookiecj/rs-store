(* WorldMetrics.v — the event counters (C18): they never decrease and they count what the
   history says happened. *)
From RS Require Import Base Channel Pipeline PipelineProofs Script World WorldTactics WorldStep Hist WorldProofs WorldQueue.

Section WorldMetrics.
Context {State : Type}.
Variable cfg : wconfig (State := State).
Notation step := (step cfg).
Notation event := (event (State := State)).
Implicit Types w : World.world (State := State).
Implicit Types h : list event.

(* what each counter counts: the weight of an event, summed over the history *)
Definition c_received (e : event) : N := match e with EDeq _ => 1 | _ => 0 end.
Definition c_dropped (e : event) : N :=
  match e with EDrop _ | EReject _ | ESubDrop _ => 1 | _ => 0 end.
Definition c_reduced (e : event) : N := match e with EReduced _ => 1 | _ => 0 end.
Definition c_mw (e : event) : N :=
  match e with
  | ECb XReducer (CbBeforeReduce _ _ _ _) | ECb XReducer (CbBeforeEffect _ _ _ _ _ _)
  | ECb XReducer (CbBeforeDispatch _ _ _ _) => 1
  | _ => 0
  end.
Definition c_errors (e : event) : N :=
  match e with
  | ERet _ (CDispatch EStoreImpl _) RErr | ERet _ (CDispatch EStoreTrait _) RErr => 1
  | _ => 0
  end.

Fixpoint total (f : event -> N) h : N :=
  match h with [] => 0 | e :: r => f e + total f r end.

Lemma total_app f h1 h2 : total f (h1 ++ h2) = (total f h1 + total f h2)%N.
Proof. induction h1 as [|e r IH]; cbn; [reflexivity|]. rewrite IH. lia. Qed.
Lemma total_rev f h : total f (rev h) = total f h.
Proof. induction h as [|e r IH]; cbn; [reflexivity|]. rewrite total_app, IH. cbn. lia. Qed.
Lemma total_hist f evs h : total f (rev evs ++ h) = (total f evs + total f h)%N.
Proof. now rewrite total_app, total_rev. Qed.
Lemma total_zero f l : Forall (fun e => f e = 0%N) l -> total f l = 0%N.
Proof. induction 1 as [|e r E _ IH]; cbn; [reflexivity|]. now rewrite E, IH. Qed.
Lemma total_quiet f evs h : Forall (fun e => f e = 0%N) evs -> total f (rev evs ++ h) = total f h.
Proof. intros Q. now rewrite total_hist, (total_zero f evs Q). Qed.

Lemma total_map_cb f x (l : list (cb State aid)) :
  total f (rev (map (ECb x) l)) = total f (map (ECb x) l).
Proof. apply total_rev. Qed.

Lemma err_ev_mw i hk v : total c_mw (map (ECb (State := State) XReducer) (err_ev i hk v)) = 0%N.
Proof. destruct v; reflexivity. Qed.

(* middleware_executed: a hook and its on_error, if there is one, count as one execution *)
Lemma hook_counts c i hk v (l : list (cb State aid)) n :
  c_mw (ECb XReducer c) = 1%N -> total c_mw (map (ECb XReducer) l) = N.of_nat n ->
  total c_mw (map (ECb XReducer) ((c :: err_ev i hk v) ++ l)) = N.of_nat (S n).
Proof.
  intros E IH. rewrite map_app, total_app, IH. cbn [app map total]. rewrite E, err_ev_mw. lia.
Qed.
Lemma hook_events_count C hk : (forall i a s v, c_mw (ECb XReducer (C i a s v)) = 1%N) ->
  forall vs i (a : aid) (s : State),
  total c_mw (map (ECb XReducer) (hook_events C hk i a s vs)) = N.of_nat (length vs).
Proof. intros HC. induction vs as [|v r IH]; intros i a s; [reflexivity|]. now apply hook_counts. Qed.
Lemma be_events_count : forall (tr : list (list eff * list eff * verdict)) i (a : aid) (s : State),
  total c_mw (map (ECb XReducer) (be_events e_id i a s tr)) = N.of_nat (length tr).
Proof. induction tr as [|[[ein eout] v] r IH]; intros i a s; [reflexivity|]. now apply hook_counts. Qed.

Definition counters_ok w : Prop :=
  let m := w_metrics w in let h := w_hist w in
  m_received m = total c_received h /\ m_dropped m = total c_dropped h /\
  m_reduced m = total c_reduced h /\ m_mw m = total c_mw h /\ m_errors m = total c_errors h.

(* counters_ok, the counters and the history apart *)
Definition counted (m : metrics) h : Prop :=
  m_received m = total c_received h /\ m_dropped m = total c_dropped h /\
  m_reduced m = total c_reduced h /\ m_mw m = total c_mw h /\ m_errors m = total c_errors h.

Lemma counted_step m h m' evs : counted m h ->
  m_received m' = (m_received m + total c_received evs)%N ->
  m_dropped m' = (m_dropped m + total c_dropped evs)%N ->
  m_reduced m' = (m_reduced m + total c_reduced evs)%N ->
  m_mw m' = (m_mw m + total c_mw evs)%N ->
  m_errors m' = (m_errors m + total c_errors evs)%N -> counted m' (rev evs ++ h).
Proof. unfold counted. rewrite !total_hist. lia. Qed.

Definition uncounted (e : event) : Prop :=
  match e with
  | EDeq _ | EDrop _ | EReject _ | ESubDrop _ | EReduced _
  | ECb XReducer (CbBeforeReduce _ _ _ _ | CbBeforeEffect _ _ _ _ _ _ | CbBeforeDispatch _ _ _ _) => False
  | ERet _ c RErr => match c with CDispatch (EStoreImpl | EStoreTrait) _ => False | _ => True end
  | _ => True
  end.

Lemma counted_quiet m h evs : Forall uncounted evs -> counted m h -> counted m (rev evs ++ h).
Proof.
  intros Q C. apply (counted_step m); [exact C|..]; rewrite total_zero; try lia.
  all: eapply Forall_impl; [|exact Q]; intros e.
  all: destruct e; cbn; repeat break_goal_match; intros U; try contradiction; reflexivity.
Qed.
(* the counter of notified subscribers is not among the five *)
Lemma counted_notified m h {X} (rest : list X) n :
  counted m h -> counted (match rest with [] => m_add_sub_notified m n | _ => m end) h.
Proof. now destruct rest. Qed.
Lemma counted_tail m h evs tail :
  Forall uncounted tail -> counted m (rev evs ++ h) -> counted m (rev (evs ++ tail) ++ h).
Proof. intros Q C. rewrite rev_app_distr, <- app_assoc. now apply counted_quiet. Qed.

Lemma total_map_one f {A} (g : A -> event) l : (forall a, f (g a) = 1%N) -> total f (map g l) = N.of_nat (length l).
Proof. intros G. induction l as [|a r IH]; [reflexivity|]. cbn [map total length]. rewrite G, IH. lia. Qed.
Lemma dropped_dq_events x sr dr :
  total c_dropped (dq_events (State := State) x sr dr) = N.of_nat (length dr).
Proof.
  unfold dq_events. rewrite total_app, total_map_one; [destruct sr as [|[]], x; cbn; lia|now destruct sr as [|[]]].
Qed.
Lemma dropped_sub_events sid x sr (dr : list (State * aid)) :
  total c_dropped (sub_events (State := State) sid x sr dr) = N.of_nat (length dr).
Proof.
  unfold sub_events. rewrite total_app, total_map_one; [destruct sr as [|[]], x as [[]|]; cbn; lia|reflexivity].
Qed.

Lemma counted_dq m h x sr dr : counted m h ->
  counted (m_add_dropped m (N.of_nat (length dr))) (rev (dq_events x sr dr) ++ h).
Proof.
  intros C. apply (counted_step m); [exact C|..]; rewrite ?dropped_dq_events, ?total_zero by auto with evs; cbn; lia.
Qed.
Lemma counted_sub m h sid x sr dr : counted m h ->
  counted (m_add_dropped m (N.of_nat (length dr))) (rev (sub_events sid x sr dr) ++ h).
Proof.
  intros C. apply (counted_step m); [exact C|..]; rewrite ?dropped_sub_events, ?total_zero by auto with evs; cbn; lia.
Qed.
Lemma counted_hooks m h l n : total c_mw (cb_events XReducer l) = N.of_nat n -> counted m h ->
  counted (m_add_mw m (N.of_nat n)) (rev (cb_events XReducer l) ++ h).
Proof.
  intros E C. apply (counted_step m); [exact C|..]; rewrite ?E, ?total_zero by auto with evs; cbn; lia.
Qed.

Theorem step_metrics w t w' : threads_all in_call (w_threads w) -> counters_ok w -> step w t = Some w' ->
  counters_ok w'.
Proof.
  intros T C H. change (counted (w_metrics w') (w_hist w')).
  step_rules H Hh; rewrite Hh; clear Hh; simp_step.
  (* the last entry of a snapshot adds `sub_notified`, which is none of the five counters *)
  all: try apply counted_notified.
  all: try (apply counted_quiet; [auto with evs|exact C]; fail).
  (* a send counts what it drops; what follows it in the same step is not counted *)
  all: try (apply counted_dq, C); try (apply counted_sub, C).
  all: try (apply counted_tail; [solve [auto with evs]|]; first [apply counted_dq, C|apply counted_sub, C]).
  - (* CS_sent: the call that returns is this dispatch *)
    destruct (dispatching_head _ _ _ _ _ _ _ AT (T _ _ TH)) as [l ->].
    apply counted_tail; [cbn; auto with evs|apply counted_dq, C].
  - (* CS_send_closed: so it is here; the error counts for the store's own entry points *)
    destruct (in_call_disp _ _ _ _ _ (T _ _ TH) (or_introl eq_refl)) as [l ->]. destruct e; (apply (counted_step (w_metrics w)); [exact C|..]; cbn; lia).
  - (* RS_take *) apply (counted_step (w_metrics w)); [exact C|..]; cbn; lia.
  - (* RS_before_reduce *) apply counted_hooks; [now apply (hook_events_count CbBeforeReduce HReduce)|exact C].
  - (* RS_reduce *)
    apply (counted_step (w_metrics w)); [exact C|..]; rewrite total_app, total_zero by auto with evs; cbn; lia.
  - (* RS_before_effect *) apply counted_hooks; [apply be_events_count|exact C].
  - (* RS_before_dispatch *) apply counted_hooks; [now apply (hook_events_count CbBeforeDispatch HDispatch)|exact C].
Qed.

Theorem reachable_metrics reducers mws progs w :
  reachable cfg reducers mws progs w -> counters_ok w.
Proof.
  apply reachable_ind; [repeat split|]. intros w0 t w1 R. apply step_metrics. eapply reachable_in_call, R.
Qed.

Definition m_le (m m' : metrics) : Prop :=
  (m_received m <= m_received m')%N /\ (m_dropped m <= m_dropped m')%N /\ (m_reduced m <= m_reduced m')%N /\
  (m_issued m <= m_issued m')%N /\ (m_executed m <= m_executed m')%N /\ (m_mw m <= m_mw m')%N /\
  (m_state_notified m <= m_state_notified m')%N /\ (m_sub_notified m <= m_sub_notified m')%N /\
  (m_errors m <= m_errors m')%N.

Lemma m_le_refl m : m_le m m.
Proof. repeat split; lia. Qed.
Theorem step_monotone w t w' : step w t = Some w' -> m_le (w_metrics w) (w_metrics w').
Proof.
  intros H. step_cases H; simp_step.
  all: try apply m_le_refl.
  (* the others only add to counters *)
  all: repeat break_goal_match; unfold m_le; cbn; lia.
Qed.

Definition c_exit (e : event) : N := match e with EDeq IExit => 1 | _ => 0 end.
Definition c_subdrop (e : event) : N := match e with ESubDrop _ => 1 | _ => 0 end.

Lemma received_split h : total c_received h = (N.of_nat (length (deqs h)) + total c_exit h)%N.
Proof.
  induction h as [|e r IH]; [reflexivity|]. unfold deqs in *. cbn [total flat_map]. rewrite app_length, IH.
  destruct e; cbn [ev_deq c_received c_exit length]; try lia. break_goal_match; cbn [length]; lia.
Qed.
Lemma dropped_split h :
  total c_dropped h = (N.of_nat (length (drops h)) + N.of_nat (length (rejects h)) + total c_subdrop h)%N.
Proof.
  induction h as [|e r IH]; [reflexivity|]. unfold drops, rejects in *. cbn [total flat_map].
  rewrite !app_length, IH. destruct e; cbn [ev_drop ev_reject c_dropped c_subdrop length]; lia.
Qed.

(* C18_balance, in particular once the reducer has left its loop: received (the marker apart) +
   dropped (subscription channels apart) = actions that entered the queue or were rejected by
   DropLatest *)
Theorem metrics_balance reducers mws progs w : reachable cfg reducers mws progs w ->
  q (w_dq w) = [] ->
  (m_received (w_metrics w) + m_dropped (w_metrics w) =
   N.of_nat (length (enqs (w_hist w)) + length (rejects (w_hist w))) +
   total c_exit (w_hist w) + total c_subdrop (w_hist w))%N.
Proof.
  intros R Q. destruct (reachable_metrics reducers mws progs w R) as (RC & DR & _).
  destruct (reachable_queue cfg reducers mws progs w R) as (_ & PERM & _).
  rewrite Q in PERM. cbn in PERM. apply Permutation.Permutation_length in PERM. rewrite app_length in PERM.
  rewrite RC, DR, received_split, dropped_split. lia.
Qed.

End WorldMetrics.

