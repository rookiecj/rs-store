(* WorldBlock.v — when a step is disabled (the wait-for edges of the model; C13): equivalences for
   the single waits (TX, room in the queue, an item, the pool, SUBS, a subscriber's thread); what a
   thread that cannot step waits for, by pc (`client_blocked_on`, `reducer_blocked_on`); the steps
   that never wait. *)
From RS Require Import Base Channel ChannelProofs Pipeline Selector World.

Section WorldBlock.
Context {State : Type}.
Variable cfg : wconfig (State := State).
Implicit Types w : World.world (State := State).

(* a step behind a test *)
Lemma guard_none {A} (b : bool) (x : A) : (if b then Some x else None) = None <-> b = false.
Proof. destruct b; split; intros; try discriminate; auto. Qed.
(* a step that sends goes on whatever the phase answers: it cannot be taken only if the phase cannot *)
Lemma sent_none {W A} (o : option (W * sresult)) (f : W -> sphase -> A) (g : W -> bool -> A) :
  match o with None => None | Some (w1, SMore ph) => Some (f w1 ph) | Some (w1, SDone ok) => Some (g w1 ok) end = None ->
  o = None.
Proof. destruct o as [[? []]|]; [discriminate..|reflexivity]. Qed.

Lemma dq_phase_none w x ph : dq_phase w x ph = None ->
  ph = SBlockWait /\ cap (w_dq w) <= length (q (w_dq w)).
Proof.
  unfold dq_phase. destruct (send_phase (w_dq w) x ph) as [[[? ?] ?]|] eqn:E; [discriminate|].
  intros _. now apply send_phase_none in E.
Qed.
Lemma dq_start_enabled w x : dq_phase w x SStart <> None.
Proof. intros E. now apply dq_phase_none in E as [E _]. Qed.

Lemma dispatch_tx_blocked w t r prog e a :
  step_client w t r prog (PDispatchTx e a) = None <-> tx_free w = false.
Proof.
  unfold step_client. destruct (tx_free w); [|split; auto].
  split; [|discriminate]. destruct (w_tx_open w); [|discriminate].
  intros B. now apply sent_none, dq_start_enabled in B.
Qed.
Lemma close_tx_blocked w t r prog stop :
  step_client w t r prog (PCloseTx stop) = None <-> tx_free w = false.
Proof.
  unfold step_client. destruct (tx_free w); [|split; auto].
  split; [|discriminate]. destruct (w_tx_open w); [|destruct stop; discriminate].
  intros B. now apply sent_none, dq_start_enabled in B.
Qed.

Lemma sending_blocked w t r prog e a :
  step_client w t r prog (PSending e a SBlockWait) = None <-> cap (w_dq w) <= length (q (w_dq w)).
Proof.
  unfold step_client, dq_phase. cbn. unfold send_block, try_send, is_full.
  destruct (Nat.leb_spec (cap (w_dq w)) (length (q (w_dq w)))); split; intros; try discriminate; auto; lia.
Qed.

Lemma reducer_recv_blocked w :
  step_reducer cfg w RRecv = None <-> q (w_dq w) = [] /\ tx_alive (w_dq w) = true.
Proof.
  unfold step_reducer, recv. destruct (q (w_dq w)) as [|[a|] l].
  - destruct (tx_alive (w_dq w)); split; intros H; try discriminate; auto. destruct H; discriminate.
  - split; [discriminate|intros [H _]; discriminate].
  - split; [discriminate|intros [H _]; discriminate].
Qed.

Lemma stop_join_blocked w t r prog :
  step_client w t r prog PStopJoin = None <-> pool_idle w = false.
Proof. apply guard_none. Qed.

Lemma subs_add_blocked w t r prog se :
  step_client w t r prog (PSubsAdd se) = None <-> subs_free w = false.
Proof. apply guard_none. Qed.

Lemma snapshot_blocked w a s :
  step_reducer cfg w (RSnapshot a s) = None <-> subs_free w = false.
Proof. apply guard_none. Qed.
Lemma clear_blocked w :
  step_reducer cfg w RClearLock = None <-> subs_free w = false.
Proof. apply guard_none. Qed.

Lemma unsub_join_blocked w t r prog sid :
  step_client w t r prog (PUnsubJoin sid) = None <-> chan_thread_finished w sid = false.
Proof. apply guard_none. Qed.

Definition sub_full w (sid : N) (ph : sphase) : Prop :=
  ph = SBlockWait /\ exists c, get_chan (w_chans w) sid = Some c /\ cap c <= length (q c).
Lemma sub_phase_none w sid x ph : sub_phase w sid x ph = None -> sub_full w sid ph.
Proof.
  unfold sub_phase, sub_full. destruct (get_chan (w_chans w) sid) as [c|]; [|discriminate].
  destruct (send_phase c x ph) as [[[? ?] ?]|] eqn:E; [discriminate|]. intros _.
  apply send_phase_none in E. destruct E. eauto.
Qed.
Lemma invoke_none w t r prog silent : invoke w t r prog silent = None -> prog = [].
Proof.
  destruct prog as [|c l]; [reflexivity|]. destruct c; cbn; try discriminate;
    destruct (memN sid (w_iter_done w)); discriminate.
Qed.

Definition chan_idle w (sid : N) : Prop :=
  exists c, get_chan (w_chans w) sid = Some c /\ q c = [] /\ tx_alive c = true.

Lemma client_blocked_on w t r prog pc : step_client w t r prog pc = None ->
  match pc with
  | PIdle => prog = []
  | PTaskStart _ visible => prog = [] /\ visible = false /\ exists k, r = Worker k
  | PDispatchTx _ _ | PCloseTx _ => tx_free w = false
  | PSending _ _ ph | PCloseSending _ ph => ph = SBlockWait /\ cap (w_dq w) <= length (q (w_dq w))
  | PStopJoin => pool_idle w = false
  | PSubsAdd _ | PUnsubLock _ => subs_free w = false
  | PUnsubCtx sid => ctx_free w sid = false
  | PUnsubJoin sid => chan_thread_finished w sid = false
  | PUnsubIterSend sid ph => sub_full w sid ph
  | PNextRecv sid => chan_idle w sid
  | PCall | PStopTake => False
  end.
Proof.
  destruct pc; cbn [step_client]; intros B.
  - eapply invoke_none; eauto.
  - destruct prog as [|[] ?]; try discriminate; destruct (w_pool w); discriminate.
  - destruct r; [discriminate|]. destruct visible; [discriminate|]. apply invoke_none in B. eauto.
  - now apply dispatch_tx_blocked in B.
  - now apply sent_none, dq_phase_none in B.
  - now apply close_tx_blocked in B.
  - now apply sent_none, dq_phase_none in B.
  - destruct (w_pool w); discriminate.
  - now apply stop_join_blocked in B.
  - now apply subs_add_blocked in B.
  - (* PUnsubLock: the first phase of the send to an iterator never waits *)
    destruct (subs_free w); [|reflexivity].
    destruct (find_sub (w_subs w) sid) as [se|]; [|discriminate]. destruct (se_kind se); try discriminate.
    now apply sent_none, sub_phase_none in B as [B _].
  - now apply guard_none in B.
  - now apply unsub_join_blocked in B.
  - now apply sent_none, sub_phase_none in B.
  - unfold chan_idle. destruct (get_chan (w_chans w) sid) as [c|]; [|discriminate]. exists c. split; [reflexivity|].
    destruct (recv c) as [[[[]|] ?]|] eqn:R; try discriminate; try (destruct prog as [|[] ?]; discriminate).
    now apply recv_none.
Qed.

Lemma reducer_blocked_on w pc : step_reducer cfg w pc = None ->
  match pc with
  | RRecv => q (w_dq w) = [] /\ tx_alive (w_dq w) = true
  | RSnapshot _ _ | RClearLock => subs_free w = false
  | RNotifySend _ _ x _ _ ph => sub_full w (se_id x) ph
  | RClearJoin sid _ => chan_thread_finished w sid = false
  | RClearIterSend sid _ ph => sub_full w sid ph
  | RDone => True
  | _ => False
  end.
Proof.
  destruct pc; cbn [step_reducer]; intros B; try exact I.
  - now apply reducer_recv_blocked.
  - destruct (br_phase _ _ _ _ _) as [[? ?] ?]. discriminate.
  - destruct go; [|discriminate]. destruct (run_reducers _ _ _ _ _ _ _) as [[[? ?] ?] ?]. discriminate.
  - discriminate.
  - destruct (be_phase _ _ _ _ _ _) as [[[|? ?] ?] ?]; discriminate.
  - destruct effs as [|? [|? ?]]; discriminate.
  - destruct (bd_phase _ _ _ _ _) as [[[|] ?] ?]; discriminate.
  - now apply guard_none in B.
  - (* RNotify: the first phase of a send never waits *)
    destruct rest as [|x rest]; [discriminate|].
    destruct (se_kind x); try discriminate; try (destruct (sel_notify _ _ _); discriminate).
    all: destruct (get_chan (w_chans w) (se_id x)) as [c|]; [|discriminate];
      destruct (tx_alive c); [|discriminate]; now apply sent_none, sub_phase_none in B as [B _].
  - now apply sent_none, sub_phase_none in B.
  - now apply guard_none in B.
  - destruct rest as [|x rest]; [discriminate|]. destruct (se_kind x); try discriminate.
    now apply sent_none, sub_phase_none in B as [B _].
  - discriminate.
  - now apply guard_none in B.
  - now apply sent_none, sub_phase_none in B.
Qed.

Lemma never_blocked_client w t r c l : step_client w t r (c :: l) PCall <> None.
Proof. exact (client_blocked_on w t r (c :: l) PCall). Qed.
Lemma never_blocked_take w t r prog : step_client w t r prog PStopTake <> None.
Proof. exact (client_blocked_on w t r prog PStopTake). Qed.
Lemma never_blocked_reducer_phases w a go s effs nd :
  step_reducer cfg w (RBeforeReduce a) <> None /\ step_reducer cfg w (RReduce a go) <> None /\
  step_reducer cfg w (RWrite a s effs nd) <> None /\ step_reducer cfg w (RBeforeEffect a s effs nd) <> None /\
  step_reducer cfg w (RSpawn a s effs nd) <> None /\ step_reducer cfg w (RBeforeDispatch a s) <> None.
Proof. repeat split; exact (reducer_blocked_on w _). Qed.

End WorldBlock.
