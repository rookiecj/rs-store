(* WorldIssued.v — the effect_issued counter (C18): it counts exactly the effects the reducers
   returned, as recorded in the history by their CbReduce events. *)
From RS Require Import Base Pipeline PipelineProofs Script World WorldTactics WorldStep Hist WorldProofs WorldMetrics.

Section WorldIssued.
Context {State : Type}.
Variable cfg : wconfig (State := State).
Notation step := (step cfg).
Notation event := (event (State := State)).
Implicit Types w : World.world (State := State).

Definition c_issued (e : event) : N :=
  match e with ECb XReducer (CbReduce _ _ _ _ _ (Some _)) => 1 | _ => 0 end.

(* effects the reducer thread has collected but not yet counted *)
Definition collected (pc : rpc (State := State)) : N :=
  match pc with
  | RWrite _ _ effs _ | RBeforeEffect _ _ effs _ => N.of_nat (length effs)
  | _ => 0
  end.

Definition inv_issued w : Prop :=
  forall pc, get_thread (w_threads w) reducer_tid = Some (TReducer pc) ->
    (m_issued (w_metrics w) + collected pc)%N = total c_issued (w_hist w).

Lemma calls_issued (a : aid) (calls : list (nat * State * dop State eff)) :
  N.of_nat (length (chain_effs calls)) = total c_issued (cb_events XReducer (map (call_event e_id a) calls)).
Proof.
  unfold cb_events. induction calls as [|[[j0 s0] d] l IH]; [reflexivity|].
  cbn [chain_effs flat_map map call_event total c_issued snd] in *.
  fold (chain_effs l). rewrite app_length, Nat2N.inj_add, IH.
  destruct (dop_eff d); cbn; lia.
Qed.

Lemma issued_frame w w' evs : w_hist w' = rev evs ++ w_hist w ->
  (forall pc', get_thread (w_threads w') reducer_tid = Some (TReducer pc') ->
   exists pc, get_thread (w_threads w) reducer_tid = Some (TReducer pc) /\
     (m_issued (w_metrics w') + collected pc' = m_issued (w_metrics w) + collected pc + total c_issued evs)%N) ->
  inv_issued w -> inv_issued w'.
Proof.
  intros Hh S I pc' G'. destruct (S _ G') as (pc & G & E). specialize (I _ G). rewrite Hh, total_hist. lia.
Qed.

Lemma collected_spawn_next a s effs nd : collected (spawn_next a s effs nd) = 0%N.
Proof. now destruct effs, nd. Qed.

Theorem step_issued w t w' : inv_issued w -> step w t = Some w' -> inv_issued w'.
Proof.
  intros I H. pose proof (fun t' pc' => step_keeps_reducer cfg w t w' t' pc' H) as RK.
  step_rules H Hh; (eapply issued_frame; [exact Hh| |exact I]); clear Hh; intros pc' G'.
  (* a client or a subscriber's thread leaves the reducer's entry as it is; a rule of the reducer writes
     it (where the reducer sends, AT says at which pc it stood) *)
  all: first [apply RK in G'; [|congruence]
             |try open_at AT; simp_step; rewrite get_put_same in G'; injection G' as <-].
  all: eexists; (split; [eassumption|]); simp_step; rewrite ?collected_spawn_next.
  all: try (rewrite total_zero by auto with evs).
  all: autounfold with next_pc; repeat break_goal_match; cbn; try lia.
  (* (RS_before_effect counts what was collected: `collected_spawn_next`; RS_write carries it along)
     RS_reduce: the effects the reducers returned are collected *)
  rewrite (calls_issued a calls), total_app. cbn. lia.
Qed.

Theorem reachable_issued reducers mws progs w : reachable cfg reducers mws progs w -> inv_issued w.
Proof.
  apply reachable_ind; [|intros; eapply step_issued; eauto].
  intros pc G. now apply init_reducer_pc in G as ->.
Qed.

(* C18_effect_issued: exact whenever the reducer is not between collecting an action's effects and
   counting them - so while it waits in recv and once stop() has returned (the bound on the programs
   is not used) *)
Theorem issued_balance reducers mws progs w pc : (length progs <= 100)%nat ->
  reachable cfg reducers mws progs w ->
  get_thread (w_threads w) reducer_tid = Some (TReducer pc) ->
  (forall a s effs nd, pc <> RWrite a s effs nd /\ pc <> RBeforeEffect a s effs nd) ->
  m_issued (w_metrics w) = total c_issued (w_hist w).
Proof.
  intros _ R G NP. pose proof (reachable_issued _ _ _ _ R _ G) as I.
  destruct pc; cbn [collected] in I; try lia.
  - destruct (NP a s effs nd) as [X _]. now contradiction X.
  - destruct (NP a s effs nd) as [_ X]. now contradiction X.
Qed.
End WorldIssued.
