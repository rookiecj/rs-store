(* World2.v — two stores in one process (C19): a pair of stores is the product of two single-store
   worlds; a step of one leaves the other untouched, in content and in what it can do next. True by
   the structure of the product: the model has no state shared between stores. The substance of
   C19 is the correspondence: the harness runs two real stores, with equal names, the same reducer
   type and shared subscriber objects, in one process. *)
From RS Require Import Base World.

Section World2.
Context {State : Type}.
Variables cfgA cfgB : wconfig (State := State).

Record world2 := mkWorld2 { wa : world (State := State); wb : world (State := State) }.
Inductive side := SideA | SideB.

Definition step2 (w : world2) (s : side) (t : N) : option world2 :=
  match s with
  | SideA => option_map (fun a => mkWorld2 a (wb w)) (step cfgA (wa w) t)
  | SideB => option_map (fun b => mkWorld2 (wa w) b) (step cfgB (wb w) t)
  end.

Fixpoint run2 (w : world2) (sched : list (side * N)) : option world2 :=
  match sched with
  | [] => Some w
  | (s, t) :: r => match step2 w s t with Some w' => run2 w' r | None => None end
  end.

Definition is_a (p : side * N) : bool := match fst p with SideA => true | SideB => false end.
Definition is_b (p : side * N) : bool := negb (is_a p).

Theorem step2_frame w s t w' : step2 w s t = Some w' ->
  match s with SideA => wb w' = wb w | SideB => wa w' = wa w end.
Proof.
  destruct s; cbn; [destruct (step cfgA (wa w) t)|destruct (step cfgB (wb w) t)]; cbn;
    intros H; inversion H; reflexivity.
Qed.

Theorem step2_other_unaffected w s t w' : step2 w s t = Some w' ->
  match s with
  | SideA => forall t', step cfgB (wb w') t' = step cfgB (wb w) t'
  | SideB => forall t', step cfgA (wa w') t' = step cfgA (wa w) t'
  end.
Proof. intros H. pose proof (step2_frame w s t w' H) as F. destruct s; intros t'; now rewrite F. Qed.

(* so every per-store theorem holds of either store of a pair *)
Theorem run2_project : forall sched w w', run2 w sched = Some w' ->
  run cfgA (wa w) (map snd (filter is_a sched)) = Some (wa w') /\
  run cfgB (wb w) (map snd (filter is_b sched)) = Some (wb w').
Proof.
  induction sched as [|[s t] r IH]; intros w w' H; cbn in H.
  - injection H as <-. split; reflexivity.
  - destruct (step2 w s t) as [w1|] eqn:E; [|discriminate].
    destruct (IH w1 w' H) as [HA HB].
    destruct s; cbn [filter is_a is_b fst negb map snd run]; cbn in E.
    + destruct (step cfgA (wa w) t) as [a|]; [|discriminate]. injection E as <-.
      split; [exact HA|exact HB].
    + destruct (step cfgB (wb w) t) as [b|]; [|discriminate]. injection E as <-.
      split; [exact HA|exact HB].
Qed.

End World2.
