(* SelectorProofs.v — a selector delivers `dedup` of the selected values (C16); three facts about it
   that do not unfold it: it is a subsequence of the input, no two adjacent values are equal, and
   after every notification the subscriber knows the current value. *)
From RS Require Import Base Selector.

Section SelectorProofs.
Context {V T : Type}.
Variable veq : V -> V -> bool.
Hypothesis veq_spec : forall x y, veq x y = true <-> x = y.

Definition last_delivered (prev : option V) (out : list (V * T)) : option V :=
  match rev out with [] => prev | (v, _) :: _ => Some v end.

Lemma last_delivered_cons prev v t out :
  last_delivered prev ((v, t) :: out) = last_delivered (Some v) out.
Proof. unfold last_delivered. cbn [rev]. now destruct (rev out). Qed.

Lemma sel_stream_spec : forall (l : list (V * T)) last,
  sel_stream veq last l = (dedup veq last l, last_delivered last (dedup veq last l)).
Proof.
  induction l as [|[v t] r IH]; intros last; cbn [sel_stream dedup]; [reflexivity|].
  unfold sel_notify. destruct last as [p|]; [destruct (veq p v)|]; rewrite IH;
    now rewrite ?last_delivered_cons.
Qed.

Lemma sel_stream_dedup : forall (l : list (V * T)) last,
  fst (sel_stream veq last l) = dedup veq last l.
Proof. intros. now rewrite sel_stream_spec. Qed.

Lemma sel_stream_last : forall (l : list (V * T)) last,
  snd (sel_stream veq last l) = last_delivered last (fst (sel_stream veq last l)).
Proof. intros. now rewrite sel_stream_spec. Qed.

Fixpoint no_adjacent_dup (prev : option V) (l : list (V * T)) : Prop :=
  match l with
  | [] => True
  | (v, _) :: r => (match prev with Some p => p <> v | None => True end) /\ no_adjacent_dup (Some v) r
  end.

Lemma veqP x y : if veq x y then x = y else x <> y.
Proof.
  destruct (veq x y) eqn:E; [now apply veq_spec|]. intros H. apply veq_spec in H. congruence.
Qed.

Lemma dedup_no_adjacent : forall (l : list (V * T)) prev, no_adjacent_dup prev (dedup veq prev l).
Proof.
  induction l as [|[v t] r IH]; intros prev; cbn [dedup]; [exact I|].
  destruct prev as [p|]; [pose proof (veqP p v); destruct (veq p v)|]; cbn [no_adjacent_dup]; auto.
Qed.

Lemma dedup_subseq : forall (l : list (V * T)) prev, subseq (dedup veq prev l) l.
Proof.
  induction l as [|[v t] r IH]; intros prev; cbn [dedup]; [constructor|].
  destruct prev as [p|]; [destruct (veq p v)|]; try (apply subseq_take; apply IH).
  apply subseq_skip, IH.
Qed.

(* every input is delivered or equals the value delivered last before it, stated as: the value
   the subscriber knows after each input (computed from the deliveries only) is the current one *)
Fixpoint current_values (prev : option V) (l : list (V * T)) : list (option V) :=
  match l with [] => [] | (v, _) :: r => Some v :: current_values (Some v) r end.

Fixpoint known_values (prev : option V) (l : list (V * T)) : list (option V) :=
  match l with
  | [] => []
  | (v, _) :: r =>
      let '(last', _) := sel_notify veq prev v in last' :: known_values last' r
  end.

Lemma sel_notify_fires last v :
  snd (sel_notify veq last v) = true <-> last <> Some v.
Proof.
  unfold sel_notify. destruct last as [p|]; [pose proof (veqP p v); destruct (veq p v)|]; cbn;
    split; congruence.
Qed.

Lemma sel_notify_last last v : fst (sel_notify veq last v) = Some v.
Proof.
  unfold sel_notify. destruct last as [p|]; [pose proof (veqP p v); destruct (veq p v)|]; cbn;
    congruence.
Qed.

Lemma known_is_current : forall (l : list (V * T)) prev,
  known_values prev l = current_values prev l.
Proof.
  induction l as [|[v t] r IH]; intros prev; cbn [known_values current_values]; [reflexivity|].
  pose proof (sel_notify_last prev v) as L. destruct (sel_notify veq prev v) as [last' f].
  cbn in L. subst. now rewrite IH.
Qed.

Lemma dedup_first : forall v t (r : list (V * T)), exists out, dedup veq None ((v, t) :: r) = (v, t) :: out.
Proof. intros. cbn. eauto. Qed.

End SelectorProofs.
