(* ChannelProofs.v — the bounded channel: what a phase of a send and a receive do to the queue,
   under each policy (pure parts of C02, C05, C06, C10). *)
From RS Require Import Base Channel.

Section ChannelProofs.
Context {A : Type}.
Implicit Types c : chan A.

Definition bounded c : Prop := length (q c) <= cap c.

Lemma try_send_some c x c' : try_send c x = Some c' ->
  c' = set_q c (q c ++ [x]) /\ length (q c) < cap c.
Proof.
  unfold try_send, is_full. destruct (Nat.leb_spec (cap c) (length (q c))); [discriminate|].
  intros E; injection E as <-. auto.
Qed.

Lemma try_send_none c x : try_send c x = None -> cap c <= length (q c).
Proof.
  unfold try_send, is_full. destruct (Nat.leb_spec (cap c) (length (q c))); [auto|discriminate].
Qed.

Lemma try_recv_spec c : let '(o, c') := try_recv c in
  cap c' = cap c /\ pol c' = pol c /\ tx_alive c' = tx_alive c /\
  match o with Some x => q c = x :: q c' | None => q c = [] /\ c' = c end.
Proof. unfold try_recv. destruct (q c) as [|x r]; auto. Qed.

Lemma recv_some c o c' : recv c = Some (o, c') ->
  cap c' = cap c /\ pol c' = pol c /\ tx_alive c' = tx_alive c /\
  match o with Some x => q c = x :: q c' | None => q c = [] /\ c' = c /\ tx_alive c = false end.
Proof.
  unfold recv. destruct (q c) as [|x r], (tx_alive c) eqn:T; try discriminate;
    intros H; injection H as <- <-; auto 6.
Qed.

Lemma recv_enabled c : recv c <> None <-> q c <> [] \/ tx_alive c = false.
Proof.
  unfold recv. destruct (q c); [destruct (tx_alive c)|]; split; intros H; try congruence; auto.
  - destruct H; congruence.
  - left; discriminate.
Qed.

Lemma send_phase_spec c x ph c' sr dr : send_phase c x ph = Some (c', sr, dr) ->
  (try_send c x = Some c' /\ sr = SDone true /\ dr = []) \/
  (exists old, q c = old :: q c' /\ c' = set_q c (q c') /\ ph = SDo2 /\ sr = SMore SDo3 /\
               dr = dropped_action (Some old) /\ pol c = DropOldest) \/
  (c' = c /\ (sr = SDone true -> False) /\
   (dr = [] \/ (ph = SStart /\ pol c = DropLatest /\ sr = SDone false /\ dr = dropped_action (Some x)))).
Proof.
  destruct ph; cbn; unfold send_block, try_recv.
  - destruct (pol c); [|destruct (try_send c x) ..]; intros H; injection H as <- <- <-; auto;
      right; right; repeat split; auto; discriminate.
  - destruct (try_send c x); [|discriminate]. intros H; injection H as <- <- <-. auto.
  - destruct (pol c), (q c) as [|y r]; intros H; injection H as <- <- <-;
      try (right; right; repeat split; auto; discriminate).
    right; left. exists y. auto 7.
  - destruct (try_send c x); intros H; injection H as <- <- <-; auto.
    right; right. repeat split; auto; discriminate.
Qed.

Lemma send_phase_keeps c x ph c' sr dr : send_phase c x ph = Some (c', sr, dr) ->
  cap c' = cap c /\ pol c' = pol c /\ tx_alive c' = tx_alive c /\ (bounded c -> bounded c').
Proof.
  unfold bounded. intros H.
  apply send_phase_spec in H as [(E & _)|[(old & Q & -> & _)|(-> & _)]]; auto.
  - apply try_send_some in E as [-> L]. cbn. rewrite app_length. cbn. repeat split. lia.
  - rewrite Q. cbn. repeat split. lia.
Qed.

Lemma send_phase_contents c x ph c' sr dr : send_phase c x ph = Some (c', sr, dr) ->
  (q c' = q c ++ [x] /\ sr = SDone true /\ dr = []) \/
  (exists old, q c = old :: q c' /\ ph = SDo2 /\ sr = SMore SDo3 /\ dr = dropped_action (Some old) /\
               pol c = DropOldest) \/
  (q c' = q c /\ (sr = SDone true -> False) /\
   (dr = [] \/ (ph = SStart /\ pol c = DropLatest /\ sr = SDone false /\ dr = dropped_action (Some x)))).
Proof.
  intros H. apply send_phase_spec in H as [(E & H)|[(old & Q & _ & H)|(-> & H)]]; eauto 6.
  apply try_send_some in E as [-> _]. auto.
Qed.

(* C05: a blocking send waits only for room *)
Lemma send_block_enabled c x : send_phase c x SBlockWait <> None <-> length (q c) < cap c.
Proof.
  cbn. unfold send_block, try_send, is_full.
  destruct (Nat.leb_spec (cap c) (length (q c))) as [LE|LT]; split; intros HH; try congruence; lia.
Qed.

Lemma send_phase_none c x ph : send_phase c x ph = None -> ph = SBlockWait /\ cap c <= length (q c).
Proof.
  destruct ph; cbn.
  - destruct (pol c); [discriminate| |]; destruct (try_send c x); discriminate.
  - unfold send_block. destruct (try_send c x) eqn:E; [discriminate|]. apply try_send_none in E. auto.
  - destruct (pol c); try discriminate. destruct (try_recv c). discriminate.
  - destruct (try_send c x); discriminate.
Qed.
Lemma recv_none c : recv c = None -> q c = [] /\ tx_alive c = true.
Proof. unfold recv. destruct (q c); [destruct (tx_alive c)|]; now intros. Qed.

(* C06, C10: only the blocking phase waits (whatever the policy: the first hypothesis is spare) *)
Lemma drop_policy_never_waits c x ph : pol c <> Block -> ph <> SBlockWait -> send_phase c x ph <> None.
Proof.
  intros _ HPh H. now apply send_phase_none in H.
Qed.
(* a drop policy never reaches it *)
Lemma drop_policy_phases c x ph c' ph' dr : pol c <> Block ->
  send_phase c x ph = Some (c', SMore ph', dr) -> ph' <> SBlockWait.
Proof.
  intros HP. destruct ph; cbn; unfold send_block;
    destruct (pol c), (try_send c x), (try_recv c); congruence.
Qed.

Lemma send_alive c x ph c' sr dr : send_phase c x ph = Some (c', sr, dr) -> tx_alive c' = tx_alive c.
Proof. intros H. now apply send_phase_keeps in H. Qed.
Lemma recv_alive c o c' : recv c = Some (o, c') -> tx_alive c' = tx_alive c.
Proof. intros H. now apply recv_some in H. Qed.

Lemma send_no_exit c x ph c' sr dr : send_phase c x ph = Some (c', sr, dr) ->
  (x = IExit -> sr <> SDone true) -> ~ In IExit (q c) -> ~ In IExit (q c').
Proof.
  intros S X N I. apply send_phase_contents in S. destruct S as [(Q & E & _)|[(old & Q & _)|(Q & _)]].
  - rewrite Q in I. apply in_app_or in I. destruct I as [I|[I|[]]]; [now apply N|now apply X].
  - apply N. rewrite Q. now right.
  - apply N. now rewrite <- Q.
Qed.
Lemma recv_no_exit c o c' : recv c = Some (o, c') -> ~ In IExit (q c) -> ~ In IExit (q c').
Proof.
  intros H N. apply recv_some in H. destruct H as (_ & _ & _ & Q).
  destruct o as [x|]; [rewrite Q in N; intros I; apply N; now right|destruct Q as (_ & -> & _); exact N].
Qed.
Lemma recv_in c c' x : recv c = Some (Some x, c') -> In x (q c).
Proof. intros R. apply recv_some in R as (_ & _ & _ & ->). now left. Qed.

Lemma bounded_new n p : bounded (chan_new (A := A) n p).
Proof. unfold bounded; cbn. lia. Qed.
Lemma bounded_disconnect c : bounded c -> bounded (disconnect c).
Proof. auto. Qed.
Lemma bounded_tail c x l : q c = x :: l -> bounded c -> bounded (set_q c l).
Proof. unfold bounded. cbn. intros ->. cbn. lia. Qed.
Lemma bounded_recv c o c' : recv c = Some (o, c') -> bounded c -> bounded c'.
Proof.
  intros R B. apply recv_some in R. destruct R as (C & _ & _ & Q). unfold bounded in *.
  destruct o as [x|]; [rewrite Q in B; cbn in B; lia|]. destruct Q as (_ & -> & _). exact B.
Qed.

(* a burst with no consumer running (C06) *)
Fixpoint send_all (c : chan A) (l : list (item A)) : chan A * list A :=
  match l with
  | [] => (c, [])
  | x :: r =>
      match send_seq c x with
      | Some (c', _, d) => let '(c'', d') := send_all c' r in (c'', d ++ d')
      | None => (c, [])
      end
  end.

Lemma skipn_app_exact {T} (l1 l2 : list T) n : n = length l1 -> skipn n (l1 ++ l2) = l2.
Proof. intros ->. induction l1; auto. Qed.

Lemma lastn_snoc_full {T} (l : list T) x n : length l = n -> 0 < n -> lastn n (l ++ [x]) = tl l ++ [x].
Proof.
  intros L P. unfold lastn. rewrite app_length. cbn [length].
  replace (length l + 1 - n) with 1 by lia.
  destruct l as [|y l']; cbn in *; [lia|reflexivity].
Qed.
Lemma lastn_short {T} (l : list T) n : length l <= n -> lastn n l = l.
Proof. intros L. unfold lastn. replace (length l - n) with 0 by lia. reflexivity. Qed.

Lemma drop_oldest_one c x : pol c = DropOldest -> 0 < cap c -> bounded c ->
  exists c' ok d, send_seq c x = Some (c', ok, d) /\ q c' = lastn (cap c) (q c ++ [x]) /\
                  cap c' = cap c /\ pol c' = pol c /\ bounded c'.
Proof.
  unfold bounded, send_seq, try_send, is_full. intros P C B. rewrite P.
  destruct (Nat.leb_spec (cap c) (length (q c))) as [F|NF].
  - (* full: the head goes, and then there is room *)
    unfold try_recv. destruct (q c) as [|y r]; cbn [length cap q set_q] in *; [lia|].
    destruct (Nat.leb_spec (cap c) (length r)); [lia|].
    do 3 eexists. split; [reflexivity|]. cbn [cap pol q set_q].
    rewrite lastn_snoc_full, app_length by (cbn; lia). cbn. repeat split; auto; lia.
  - do 3 eexists. split; [reflexivity|]. cbn.
    rewrite lastn_short; rewrite app_length; cbn; repeat split; auto; lia.
Qed.

Lemma drop_latest_one c x : pol c = DropLatest -> bounded c ->
  exists c' ok d, send_seq c x = Some (c', ok, d) /\ q c' = firstn (cap c) (q c ++ [x]) /\
                  cap c' = cap c /\ pol c' = pol c /\ bounded c' /\
                  (ok = false <-> length (q c) = cap c).
Proof.
  unfold bounded, send_seq, try_send, is_full. intros P B. rewrite P.
  destruct (Nat.leb_spec (cap c) (length (q c))) as [F|NF]; do 3 eexists; (split; [reflexivity|]); cbn.
  - rewrite firstn_app, firstn_all2 by lia. replace (cap c - length (q c)) with 0 by lia.
    rewrite app_nil_r. repeat split; auto; lia.
  - rewrite firstn_all2; rewrite app_length; cbn; repeat split; auto; lia.
Qed.

End ChannelProofs.
