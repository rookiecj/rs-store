(* WorldLive2.v — deadlock freedom (C13) with channeled subscribers: the whole API except state
   iterators (whose early release is the known finding F5), for programs whose registration calls
   carry pairwise distinct identifiers and whose subscription channels have capacity >= 1. A join
   waits on a disconnected channel (`inv_joins`), every channeled entry in use has its thread and its
   channel (`inv_served`), every channel has capacity for an item (`inv_room`): so no thread that
   cannot step stands at an edge of `sub_edge`, and `blocked_is_quiescent` of WorldLive.v applies. *)
From RS Require Import Base Channel ChannelProofs Script World WorldTactics Hist WorldStep WorldProofs WorldQueue WorldBlock WorldEffects WorldLive WorldFlush WorldSids.

Section WorldLive2.
Context {State : Type}.
Variable cfg : wconfig (State := State).
(* Only `channels_deadlock_free` needs it. A `lia` that sees it makes its lemma depend on it
   (`client_not_reducer` does). *)
Hypothesis cap_pos : 0 < cfg_cap cfg.
Notation step := (step cfg).
Notation thread := (thread (State := State)).
Implicit Types w : World.world (State := State).

(* the tids of clients and pool workers (`tid_ok` of WorldLive.v) *)
Definition client_tid (t : N) : Prop := (t < 100)%N \/ (N.even t = true /\ (1000 <= t)%N).
Lemma client_not_reducer t : client_tid t -> t <> reducer_tid.
Proof. intros [L|[_ G]] ->; unfold reducer_tid in *; lia. Qed.

Definition joins (sid : N) (th : thread) : bool :=
  match th with
  | TClient _ _ (PUnsubJoin s) => N.eqb s sid
  | TReducer (RClearJoin s _) => N.eqb s sid
  | _ => false
  end.
Definition dead := chan_at (State := State) (fun c => tx_alive c = false).
Definition joins_dead (l : list (N * chan (State * aid))) (th : thread) : Prop :=
  forall sid, joins sid th = true -> dead l sid.
Definition inv_joins w : Prop := threads_all (joins_dead (w_chans w)) (w_threads w).

Lemma no_join l th : (forall sid, joins sid th = false) -> joins_dead l th.
Proof. intros F sid J. rewrite F in J. discriminate J. Qed.

Lemma dead_put l s c c' sid : get_chan l s = Some c -> tx_alive c' = tx_alive c -> dead l sid ->
  dead (put_chan l s c') sid.
Proof. intros G A D. apply chan_at_put; [exact D|intros ->]. rewrite A. exact (D _ G). Qed.
Lemma dead_hang_up l s sid : (sid = s \/ dead l sid) -> dead (hang_up l s) sid.
Proof. intros [->|D]; [apply chan_at_hung_up|apply chan_at_hang_up; auto]. Qed.

Lemma joins_used w sid t th : get_thread (w_threads w) t = Some th -> joins sid th = true -> used sid w.
Proof.
  intros G J. right. right. exists t, th. split; [exact G|].
  destruct th as [r prog pc|pc|]; try discriminate; destruct pc; try discriminate; cbn in J;
    apply N.eqb_eq in J; cbn; auto.
Qed.

Theorem step_joins w t w' : inv_u w -> inv_v w -> inv_joins w -> step w t = Some w' -> inv_joins w'.
Proof.
  intros U V I H. step_cases H; unfold inv_joins; simp_step.
  (* an entry the step writes is not inside a join, unless the step enters the join *)
  all: repeat (apply threads_all_put;
               [|try (apply no_join; autounfold with next_pc; repeat break_goal_match; reflexivity)]).
  all: try exact I.
  (* a send or a receive leaves a channel as connected as it was *)
  all: try (apply (threads_all_impl _ _ _ I); intros th' Y sid' J'; eapply dead_put; [exact CHAN| |exact (Y _ J')];
            first [exact (send_alive _ _ _ _ _ _ SEND)|reflexivity]).
  (* a new channel: its identifier is pending in the program, so nobody joins on it yet *)
  1,2: intros t' th' G' sid' J'; apply chan_at_put_other; [exact (I _ _ G' _ J')|]; intros ->;
       apply (pending_is_fresh w sid U V); [|exact (joins_used _ _ _ _ G' J')];
       subst prog; apply (pending_in_table _ _ _ _ _ _ _ TH INV); now left.
  (* CS_unsub_ctx, RS_clear_ctx: the thread hangs up and joins; what the others join on stays dead *)
  all: try (apply (threads_all_impl _ _ _ I); intros th' Y sid' J'; apply dead_hang_up; right; exact (Y _ J')).
  all: intros sid' J'; apply dead_hang_up; left; symmetry; now apply N.eqb_eq.
Qed.

Definition has_thread (sid : N) (ths : list (N * thread)) : Prop :=
  exists f, get_thread ths (chan_tid sid) = Some (TChan sid f).
(* of the subscriber entries in use (`subs_in`, WorldSids.v), the channeled ones have their thread and
   their channel *)
Definition served (ths : list (N * thread)) (l : list (N * chan (State * aid))) (x : subentry) : Prop :=
  is_chan_kind (se_kind x) = true -> has_thread (se_id x) ths /\ get_chan l (se_id x) <> None.
Definition inv_served w : Prop := subs_in (served (w_threads w) (w_chans w)) w.

Lemma step_has_thread w t w' sid : fresh_ok w -> step w t = Some w' ->
  has_thread sid (w_threads w) -> has_thread sid (w_threads w').
Proof.
  intros (EV & _) H [f G]. unfold has_thread.
  destruct (step_keeps cfg _ _ _ _ _ H G) as [(<- & th' & S & G')|[(th2 & NEW & G')|G']]; [| |eauto].
  - destruct th'; try contradiction. cbn in S. subst. eauto.
  - (* a new thread at this id is a thread of sid again: a worker's id is even *)
    destruct NEW as [(s2 & E & -> & _)|(E & _)]; [apply chan_tid_inj in E as <-; eauto|].
    rewrite <- E, chan_tid_odd in EV. discriminate EV.
Qed.

(* channels are created, written and hung up, never removed *)
Lemma chan_put_stays (l : list (N * chan (State * aid))) s c sid : get_chan l sid <> None -> get_chan (put_chan l s c) sid <> None.
Proof.
  destruct (N.eq_dec sid s) as [->|NE]; [rewrite get_put_chan_same; discriminate|]. now rewrite get_put_chan_other by exact NE.
Qed.
Lemma chan_hang_up_stays (l : list (N * chan (State * aid))) s sid : get_chan l sid <> None -> get_chan (hang_up l s) sid <> None.
Proof. unfold hang_up. destruct (get_chan l s); auto using chan_put_stays. Qed.
Lemma step_chan_stays w t w' sid : step w t = Some w' -> get_chan (w_chans w) sid <> None -> get_chan (w_chans w') sid <> None.
Proof. intros H. step_cases H; simp_step; auto using chan_put_stays, chan_hang_up_stays. Qed.

Theorem step_served w t w' : fresh_ok w -> inv_tid_kinds w -> inv_served w -> step w t = Some w' -> inv_served w'.
Proof.
  intros FR TI X H.
  assert (X' : subs_in (served (w_threads w') (w_chans w')) w).
  { revert X. apply subs_in_impl. intros x HX K. destruct (HX K) as [T C].
    split; [exact (step_has_thread w t w' _ FR H T)|exact (step_chan_stays w t w' _ H C)]. }
  apply step_inv in H as [evs H]. apply (Step_subs_in cfg _ w t evs w' H); [|exact X'].
  (* what is invoked: the thread and the channel of a channeled subscriber start with the call *)
  destruct_Step H; simp_step; auto with evs; repeat constructor.
  - (* CS_invoke *) destruct c; try contradiction; repeat constructor; discriminate.
  - (* CS_subscribed: the new thread *) exists false. rewrite get_put_other; [apply get_put_same|].
    intros E. exact (client_not_chan _ _ _ _ _ (TI _ _ TH) (eq_sym E)).
  - (* the new channel *) rewrite get_put_chan_same. discriminate.
  - (* CS_iter: its entry is not channeled *) discriminate.
  - (* the new channel *) discriminate.
Qed.

Definition inv_room w : Prop := chans_all (fun c => 0 < cap c) (w_chans w).
Definition cap_call (c : call) : Prop :=
  match c with CSubscribed _ n _ | CIter _ n _ => 0 < n | _ => True end.

Theorem step_room w t w' : threads_all (progs_all (fun _ => cap_call)) (w_threads w) -> inv_room w ->
  step w t = Some w' -> inv_room w'.
Proof.
  intros CT CAP H. pose proof (CT t) as CP.
  step_cases H; unfold inv_room; specialize (CP _ TH); try exact CAP.
  (* a send or a receive keeps the capacity of the channel, and so does hanging up *)
  all: try (apply chans_all_put; [exact CAP|];
            try (apply send_phase_keeps in SEND; destruct SEND as (-> & _)); exact (CAP _ _ CHAN)).
  all: try (apply chans_all_hang_up; [exact CAP|auto]).
  (* CS_subscribed, CS_iter: the capacity of the new channel is that of the call *)
  all: apply chans_all_put; [exact CAP|]; subst prog; now apply Forall_inv in CP.
Qed.

Definition quiescent2 w : Prop :=
  forall t th, get_thread (w_threads w) t = Some th ->
    thread_finished th = true \/
    (t = reducer_tid /\ th = TReducer RRecv /\ q (w_dq w) = [] /\ tx_alive (w_dq w) = true) \/
    (exists sid c, th = TChan sid false /\ get_chan (w_chans w) sid = Some c /\ q c = [] /\ tx_alive c = true).

Definition good_progs (progs : list (list call)) : Prop :=
  Forall (Forall cf_call) progs /\ Forall (Forall cap_call) progs /\ distinct_regs progs.

Section Reachable.
Variables (reducers mws : list N) (progs : list (list call)).
Hypothesis L : (length progs <= 100)%nat.
Notation reachable := (reachable cfg reducers mws progs).

Theorem reachable_joins w : distinct_regs progs -> reachable w -> inv_joins w.
Proof.
  intros D. apply reachable_ind.
  - apply init_threads_all; intros; now apply no_join.
  - intros w0 t w1 R. destruct (reachable_uv cfg reducers mws progs w0 D R) as [U V]. now apply step_joins.
Qed.

Theorem reachable_served w : reachable w -> inv_served w.
Proof.
  apply reachable_ind.
  - split; [constructor|apply init_threads_all; constructor].
  - intros w0 t w1 R. apply step_served; [now apply (reachable_fresh cfg reducers mws progs)|now apply (reachable_tid_kinds cfg reducers mws progs)].
Qed.

Theorem reachable_room w : Forall (Forall cap_call) progs -> reachable w -> inv_room w.
Proof.
  intros CP. apply reachable_ind; [intros sid c G; discriminate G|]. intros w0 t w1 R.
  apply step_room. now apply (reachable_progs cfg (fun _ => cap_call) reducers mws progs).
Qed.

(* Where no thread can step, nobody stands at an edge of `sub_edge`. *)
Section Blocked.
Variable w : World.world (State := State).
Hypothesis R : reachable w.
Hypothesis AB : all_blocked cfg w.
Hypothesis FP : Forall (Forall cf_call) progs.
Hypothesis CAPS : Forall (Forall cap_call) progs.
Hypothesis D : distinct_regs progs.

(* the thread of a channeled subscriber has ended or idles on its open, empty channel *)
Lemma chan_blocked t sid f : get_thread (w_threads w) t = Some (TChan sid f) -> f = true \/ chan_idle w sid.
Proof.
  intros G. destruct f; [now left|right]. pose proof (AB t) as B. unfold World.step in B. rewrite G in B. unfold step_chan in B.
  destruct (get_chan (w_chans w) sid) as [c|] eqn:GC;
    [|destruct (proj2 (Forall_inv (proj2 (reachable_served w R) _ _ G) eq_refl) GC)].
  exists c. split; [exact GC|]. destruct (recv c) as [[[[[? ?]|]|] ?]|] eqn:RC; try discriminate B.
  now apply recv_none.
Qed.

(* a join never waits: the channel is disconnected, so the thread is not idle *)
Lemma join_never_waits t th sid : get_thread (w_threads w) t = Some th -> joins sid th = true ->
  chan_thread_finished w sid = true.
Proof.
  intros Gt J. unfold chan_thread_finished.
  destruct (get_thread (w_threads w) (chan_tid sid)) as [[| |s f]|] eqn:Gf; try reflexivity.
  pose proof (chan_tid_inj _ _ (reachable_tid_kinds cfg _ _ _ L w R _ _ Gf)) as <-.
  destruct (chan_blocked _ _ _ Gf) as [->|(c & GC & _ & A)]; [reflexivity|].
  rewrite (reachable_joins w D R _ _ Gt _ J _ GC) in A. discriminate A.
Qed.

(* a forwarding send never waits: the channel would be full, but it is empty, its thread being idle
   or gone with everything delivered *)
Lemma forward_never_waits t a s cur rest n ph :
  get_thread (w_threads w) t <> Some (TReducer (RNotifySend a s cur rest n ph)).
Proof.
  intros Gt. pose proof (reachable_tid_kinds cfg _ _ _ L w R _ _ Gt : t = reducer_tid) as ->.
  destruct (reducer_blocked_on cfg _ _ (blocked_reducer cfg _ _ AB Gt)) as (_ & c & GC & FULL).
  destruct (Forall_inv (proj2 (reachable_served w R) _ _ Gt)) as [[f Gf] _];
    [now rewrite (cf_sending _ _ _ _ _ _ _ _ (reachable_cf cfg _ _ _ w FP R) Gt)|].
  assert (QE : q c = []).
  { destruct (chan_blocked _ _ _ Gf) as [->|(c2 & GC2 & QE & _)]; [|congruence].
    exact (proj1 (reachable_flushed cfg _ _ _ w FP R _ Gf _ GC)). }
  rewrite QE in FULL. exact (proj1 (Nat.le_ngt _ _) FULL (reachable_room w CAPS R _ _ GC)).
Qed.

(* the context locks are free, the edges of iterators outside the fragment *)
Lemma no_sub_edge : threads_all (fun th => sub_edge th = false) (w_threads w).
Proof.
  intros t th Gt. destruct (reachable_cf cfg _ _ _ w FP R) as (_ & FT & _ & FS).
  pose proof (FT _ _ Gt) as Ft. pose proof (FS _ _ Gt) as Fs.
  destruct th as [r prog pc'|pc'|]; [| |reflexivity].
  - pose proof (client_blocked_on _ _ _ _ _ (blocked_client cfg _ _ _ _ _ AB Gt)) as W.
    destruct pc'; try reflexivity; try discriminate Ft; try (apply Forall_inv in Fs; discriminate Fs); exfalso.
    + (* PUnsubCtx *) apply negb_false_iff, (existsb_holder _ _ (reachable_keys cfg _ _ _ w L R)) in W.
      destruct W as (t2 & th2 & G2 & H2). destruct th2 as [|[]|]; try discriminate H2. exact (forward_never_waits _ _ _ _ _ _ _ G2).
    + (* PUnsubJoin *) rewrite (join_never_waits _ _ sid Gt) in W; [discriminate W|apply N.eqb_refl].
  - pose proof (reachable_tid_kinds cfg _ _ _ L w R _ _ Gt : t = reducer_tid) as ->.
    pose proof (reducer_blocked_on cfg _ _ (blocked_reducer cfg _ _ AB Gt)) as W.
    destruct pc'; try reflexivity; try (apply Forall_inv in Fs; discriminate Fs); exfalso.
    + (* RNotifySend *) exact (forward_never_waits _ _ _ _ _ _ _ Gt).
    + (* RClearJoin *) rewrite (join_never_waits _ _ sid Gt) in W; [discriminate W|apply N.eqb_refl].
Qed.
End Blocked.
End Reachable.

(* C13 with channeled subscribers. Whatever the schedule, a reachable world in which no thread can
   take a step is one in which every call has returned and every effect task has ended; what
   remains are the reducer - gone, or idle on an open empty queue - and the threads of channeled
   subscribers, ended or idle on their open empty channels. *)
Theorem channels_deadlock_free reducers mws progs w : (length progs <= 100)%nat -> good_progs progs ->
  reachable cfg reducers mws progs w -> all_blocked cfg w -> quiescent2 w.
Proof.
  intros L (FP & CAPS & D) R AB t th Gt.
  destruct (blocked_is_quiescent cfg cap_pos reducers mws progs L w R AB (no_sub_edge reducers mws progs L w R AB FP CAPS D) t th Gt)
    as [F|[I|(sid & ->)]]; [now left|now right; left|].
  destruct (chan_blocked reducers mws progs L w R AB _ _ _ Gt) as [E|(c & I)]; [discriminate E|]. right; right. now exists sid, c.
Qed.

End WorldLive2.
