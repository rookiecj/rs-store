(* WorldStop.v — closing and stopping (C04, C15): the close protocol (`close_state`), the reducer's
   entry stays (`inv_tids`), what an idle pool tells (`stop_barrier`), a stopped store stays quiet
   (`stopped`). *)
From RS Require Import Base Channel ChannelProofs Pipeline Script World WorldTactics WorldStep Hist WorldProofs WorldQueue.

Section WorldStop.
Context {State : Type}.
Variable cfg : wconfig (State := State).
Notation step := (step cfg).
Notation event := (event (State := State)).
Notation thread := (thread (State := State)).
Implicit Types w : World.world (State := State).
Implicit Types h : list event.

Lemma tx_free_get w t th : tx_free w = true -> get_thread (w_threads w) t = Some th -> holds_tx th = false.
Proof. apply free_get. Qed.

(* The close protocol.
   open:    the sender exists, no exit marker is queued, nobody is sending the marker
   closing: the sender has been taken; at most one thread is inside the send of the marker (that
            there is one is `inv_closer`, WorldLive.v); no dispatcher is inside a send
   closed:  the marker was sent (or lost under DropLatest) and the queue is disconnected; nothing is
            sent any more; the marker, if queued, is the last item; once the reducer has left its
            loop (`is_post`) the queue is empty *)
Definition is_sending (th : thread) : bool :=
  match th with TClient _ _ (PSending _ _ _) => true | _ => false end.
Definition is_close_sending (th : thread) : bool :=
  match th with TClient _ _ (PCloseSending _ _) => true | _ => false end.
Definition post_exit (pc : rpc (State := State)) : bool :=
  match pc with
  | RClearLock | RClear _ | RClearCtx _ _ | RClearJoin _ _ | RClearIterSend _ _ _ | RDone => true
  | _ => false
  end.
Definition is_post (th : thread) : bool := match th with TReducer pc => post_exit pc | _ => false end.

Definition exit_last (l : list (item aid)) : Prop := forall l1 l2, l = l1 ++ IExit :: l2 -> l2 = [].

Definition th_open (th : thread) : Prop := is_close_sending th = false /\ is_post th = false.
Definition th_closing (th : thread) : Prop := is_sending th = false /\ is_post th = false.
Definition th_closed (th : thread) : Prop := is_sending th = false /\ is_close_sending th = false.
Definition th_not_post (th : thread) : Prop := is_post th = false.

Definition threads_all_but (tc : N) (P : thread -> Prop) (l : list (N * thread)) : Prop :=
  forall t th, t <> tc -> get_thread l t = Some th -> P th.
Lemma threads_all_but_put tc P l t th :
  threads_all_but tc P l -> (t = tc \/ P th) -> threads_all_but tc P (put_thread l t th).
Proof.
  intros H Hp t0 th0 Hne G. apply get_put_inv in G. destruct G as [[-> ->]|[_ G]]; [now destruct Hp|eauto].
Qed.

Lemma threads_all_put_but tc P l th :
  threads_all_but tc P l -> P th -> threads_all P (put_thread l tc th).
Proof. intros H Hp t0 th0 G. apply get_put_inv in G. destruct G as [[_ ->]|[N G]]; eauto. Qed.

Inductive close_state w : Prop :=
| CSOpen : w_tx_open w = true -> tx_alive (w_dq w) = true -> ~ In IExit (q (w_dq w)) ->
           threads_all th_open (w_threads w) -> close_state w
| CSClosing : w_tx_open w = false -> tx_alive (w_dq w) = true -> ~ In IExit (q (w_dq w)) ->
           threads_all th_closing (w_threads w) ->
           (exists tc, threads_all_but tc (fun th => is_close_sending th = false) (w_threads w)) ->
           close_state w
| CSClosed : w_tx_open w = false -> tx_alive (w_dq w) = false -> exit_last (q (w_dq w)) ->
           threads_all th_closed (w_threads w) ->
           (threads_all th_not_post (w_threads w) \/ q (w_dq w) = []) -> close_state w.

Lemma exit_last_nil : exit_last [].
Proof. intros l1 l2 E. destruct l1; discriminate. Qed.
Lemma exit_last_no_exit l : ~ In IExit l -> exit_last l.
Proof. intros N l1 l2 E. exfalso. apply N. rewrite E. apply in_or_app. right. now left. Qed.
Lemma exit_last_snoc_exit l : ~ In IExit l -> exit_last (l ++ [IExit]).
Proof.
  intros N l1 l2 E. destruct l2 as [|y l2 _] using rev_ind; [reflexivity|exfalso].
  rewrite app_comm_cons, app_assoc in E. apply app_inj_tail in E. destruct E as [E _].
  apply N. rewrite E. apply in_or_app. right. now left.
Qed.
Lemma exit_last_app l m : exit_last (l ++ m) -> exit_last m.
Proof. intros H l1 l2 E. apply (H (l ++ l1) l2). now rewrite E, app_assoc. Qed.
Lemma exit_last_head_exit l : exit_last (IExit :: l) -> l = [].
Proof. intros H. apply (H [] l). reflexivity. Qed.

Lemma send_exit_last (c : chan aid) ph c' ok dr : send_phase c IExit ph = Some (c', SDone ok, dr) ->
  ~ In IExit (q c) -> exit_last (q c').
Proof.
  intros S N. apply send_phase_contents in S. destruct S as [(Q & _)|[(old & _ & _ & E & _)|(Q & _)]].
  - rewrite Q. now apply exit_last_snoc_exit.
  - discriminate.
  - rewrite Q. now apply exit_last_no_exit.
Qed.

Lemma holds_tx_false th : holds_tx th = false -> is_sending th = false /\ is_close_sending th = false.
Proof. destruct th as [r p pc| |]; [destruct pc|..]; intros; auto; discriminate. Qed.

Lemma clearing_past (pc : rpc (State := State)) sid rest ph :
  clearing_iter pc sid rest ph -> post_exit pc = true.
Proof. now intros [(x & -> & _)| ->]. Qed.

(* The transitions, each over the three fields `close_state` reads (the table with one entry written,
   the flag, the queue), which a rule's `w'` meets by `reflexivity`. *)

(* every state lets the queue lose items at the front and a thread outside the sends appear or move;
   the reducer past its loop only if the queue is left disconnected and empty *)
Lemma close_put l w w' t th : close_state w -> w_threads w' = put_thread (w_threads w) t th ->
  w_tx_open w' = w_tx_open w -> tx_alive (w_dq w') = tx_alive (w_dq w) -> q (w_dq w) = l ++ q (w_dq w') ->
  holds_tx th = false -> (is_post th = true -> tx_alive (w_dq w) = false /\ q (w_dq w') = []) -> close_state w'.
Proof.
  intros CS T O A Q HT P. apply holds_tx_false in HT. destruct HT as [S C].
  assert (NE : ~ In IExit (q (w_dq w)) -> ~ In IExit (q (w_dq w'))) by (rewrite Q, in_app_iff; tauto).
  assert (NP : tx_alive (w_dq w) = true -> is_post th = false).
  { intros A1. destruct (is_post th); [|reflexivity]. destruct P; congruence. }
  destruct CS as [O1 A1 NE1 TA|O1 A1 NE1 TA [tc TB]|O1 A1 EL TA PQ];
    [apply CSOpen|apply CSClosing|apply CSClosed]; rewrite ?T, ?O, ?A; auto;
    try (apply threads_all_put; [exact TA|now split; auto]).
  - exists tc. apply threads_all_but_put; auto.
  - rewrite Q in EL. now apply exit_last_app in EL.
  - destruct (is_post th) eqn:IP; [right; now apply P|].
    destruct PQ as [PQ|PQ]; [left; now apply threads_all_put|right].
    rewrite PQ in Q. symmetry in Q. now apply app_eq_nil in Q.
Qed.

(* open stays open: a dispatcher at the queue finds the store open *)
Lemma dispatching_open w t r prog pc e a ph : close_state w ->
  get_thread (w_threads w) t = Some (TClient r prog pc) -> dispatching w pc e a ph -> w_tx_open w = true.
Proof.
  intros CS G [(_ & _ & _ & O)| ->]; [exact O|].
  destruct CS as [O _ _ _|_ _ _ TA _|_ _ _ TA _]; [exact O|destruct (TA _ _ G); discriminate..].
Qed.
Lemma close_dispatch w w' t r prog pc e a ph dq' sr dr th : close_state w ->
  get_thread (w_threads w) t = Some (TClient r prog pc) -> dispatching w pc e a ph ->
  send_phase (w_dq w) (IAct a) ph = Some (dq', sr, dr) ->
  w_threads w' = put_thread (w_threads w) t th -> w_tx_open w' = w_tx_open w -> w_dq w' = dq' ->
  th_open th -> close_state w'.
Proof.
  intros CS G DI S T O D P. pose proof (dispatching_open _ _ _ _ _ _ _ _ CS G DI) as O1.
  destruct CS as [_ A NE TA|O2 _ _ _ _|O2 _ _ _ _]; [|congruence..].
  pose proof (send_phase_keeps _ _ _ _ _ _ S) as (_ & _ & A' & _).
  apply CSOpen; rewrite ?T, ?O, ?D; [exact O1|congruence| |now apply threads_all_put].
  eapply send_no_exit; [exact S|discriminate|exact NE].
Qed.

(* what the closing thread finds, when it starts (having taken the sender) as while it is parked in
   the send of the marker: it is alone at the queue *)
Definition closer w t : Prop :=
  w_tx_open w = false /\ tx_alive (w_dq w) = true /\ ~ In IExit (q (w_dq w)) /\
  threads_all th_closing (w_threads w) /\ threads_all_but t th_closed (w_threads w).

Lemma closer_at w t r prog pc stop ph o : close_state w ->
  get_thread (w_threads w) t = Some (TClient r prog pc) -> closing w pc stop ph o -> closer (set_tx_open w o) t.
Proof.
  intros CS G [(-> & _ & F & O' & ->)|(-> & ->)].
  - (* it starts: TX is free, so nobody is inside a send *)
    destruct CS as [_ A NE TA|O _ _ _ _|O _ _ _ _]; [|congruence..].
    split; [reflexivity|split; [exact A|split; [exact NE|split]]]; intros t1 th1; [|intros _]; intros G1;
      destruct (TA _ _ G1); destruct (holds_tx_false _ (tx_free_get w _ _ F G1)); repeat split; assumption.
  - (* it is parked in the send: it is the one thread CSClosing leaves out *)
    destruct CS as [_ _ _ TA|O A NE TA [tc TB]|_ _ _ TA _];
      [destruct (TA _ _ G); discriminate| |destruct (TA _ _ G); discriminate].
    destruct (N.eq_dec t tc) as [->|NT]; [|discriminate (TB _ _ NT G)].
    split; [exact O|split; [exact A|split; [exact NE|split; [exact TA|]]]].
    intros t0 th0 N0 G0. split; [apply (TA _ _ G0)|exact (TB _ _ N0 G0)].
Qed.

(* open or closing -> closing: the marker is not sent yet *)
Lemma closer_more w w' t th ph dq' ph' dr : closer w t ->
  send_phase (w_dq w) IExit ph = Some (dq', SMore ph', dr) ->
  w_threads w' = put_thread (w_threads w) t th -> w_tx_open w' = w_tx_open w -> w_dq w' = dq' ->
  th_closing th -> close_state w'.
Proof.
  intros (O1 & A & NE & TA & TB) S T O D P. pose proof (send_phase_keeps _ _ _ _ _ _ S) as (_ & _ & A' & _).
  apply CSClosing; rewrite ?T, ?O, ?D; [exact O1|congruence| | |exists t].
  - eapply send_no_exit; [exact S|discriminate|exact NE].
  - now apply threads_all_put.
  - apply threads_all_but_put; [|now left]. intros t0 th0 N0 G0. apply (TB _ _ N0 G0).
Qed.
(* open or closing -> closed: the marker is sent or lost, the sender dropped *)
Lemma closer_done w w' t th ph dq' ok dr : closer w t ->
  send_phase (w_dq w) IExit ph = Some (dq', SDone ok, dr) ->
  w_threads w' = put_thread (w_threads w) t th -> w_tx_open w' = w_tx_open w -> w_dq w' = disconnect dq' ->
  holds_tx th || is_post th = false -> close_state w'.
Proof.
  intros (O1 & A & NE & TA & TB) S T O D HP. apply orb_false_iff in HP. destruct HP as [HT P].
  apply holds_tx_false in HT.
  apply CSClosed; rewrite ?T, ?O, ?D; [exact O1|reflexivity| | |left].
  - exact (send_exit_last _ _ _ _ _ S NE).
  - now apply threads_all_put_but.
  - apply threads_all_put; [|exact P]. intros t0 th0 G0. apply (TA _ _ G0).
Qed.

Lemma reducer_past_closed w pc : close_state w ->
  get_thread (w_threads w) reducer_tid = Some (TReducer pc) -> post_exit pc = true ->
  w_tx_open w = false /\ tx_alive (w_dq w) = false /\ q (w_dq w) = [].
Proof.
  intros [_ _ _ TA|_ _ _ TA _|O A _ _ PQ] G P;
    [destruct (TA _ _ G) as [_ F]; change (post_exit pc = false) in F; congruence..|].
  split; [exact O|split; [exact A|]]. destruct PQ as [PQ|PQ]; [|exact PQ].
  pose proof (PQ _ _ G : post_exit pc = false). congruence.
Qed.
Lemma exit_head_closed w l : close_state w -> q (w_dq w) = IExit :: l -> tx_alive (w_dq w) = false /\ l = [].
Proof.
  intros [_ _ NE _|_ _ NE _ _|_ A EL _ _] Q; [destruct NE; rewrite Q; now left..|].
  split; [exact A|]. rewrite Q in EL. now apply exit_last_head_exit.
Qed.

Theorem step_close w t w' : close_state w -> step w t = Some w' -> close_state w'.
Proof.
  intros CS H. step_cases H.
  (* most rules move a thread that stays outside the sends on the queue (the reducer: inside its loop),
     whatever the call, flag or list its new pc depends on ... *)
  all: try (eapply (close_put []); [exact CS|reflexivity..| |];
            autounfold with next_pc; repeat break_goal_match; first [reflexivity|discriminate]).
  (* ... some create another besides, or move it twice *)
  all: try (eapply (close_put [] (set_thread w _ _));
            [|reflexivity..| |]; [|autounfold with next_pc; repeat break_goal_match; first [reflexivity|discriminate]..];
            eapply (close_put []); [exact CS|reflexivity..|discriminate]; fail).
  (* past its loop the reducer goes on: it has left the queue disconnected and empty *)
  all: try (eapply (close_put []); [exact CS|reflexivity..|intros _];
            refine (proj2 (reducer_past_closed w _ CS TH _)); first [reflexivity|exact (clearing_past _ _ _ _ AT)]).
  - (* CS_send *)
    eapply close_dispatch; [exact CS|exact TH|exact AT|exact SEND|reflexivity..|now split].
  - (* CS_sent *)
    eapply close_dispatch; [exact CS|exact TH|exact AT|exact SEND|reflexivity..|now split].
  - (* CS_close_send *)
    eapply closer_more; [exact (closer_at _ _ _ _ _ _ _ _ CS TH AT)|exact SEND|reflexivity..|now split].
  - (* CS_close_sent *)
    eapply closer_done; [exact (closer_at _ _ _ _ _ _ _ _ CS TH AT)|exact SEND|reflexivity..|now destruct stop].
  - (* RS_take: the marker is taken last, out of a disconnected queue *)
    eapply (close_put [x]); [exact CS|reflexivity|reflexivity|reflexivity|exact HEAD|now destruct x|].
    destruct x; [discriminate|]. intros _. exact (exit_head_closed w _ CS HEAD).
  - (* RS_disconnected *)
    eapply (close_put []); [exact CS|reflexivity..|now split].
  - (* HS_deliver: no entry is written *)
    eapply (close_put []); [exact CS|symmetry; apply put_get_same, TH|reflexivity..|discriminate].
Qed.

Theorem reachable_close reducers mws progs w :
  reachable cfg reducers mws progs w -> close_state w.
Proof.
  apply reachable_ind; [|intros; eapply step_close; eauto].
  apply CSOpen; try reflexivity; [intros []|]. apply init_threads_all; intros; now split.
Qed.

Definition inv_tids w : Prop :=
  (exists pc, get_thread (w_threads w) reducer_tid = Some (TReducer pc)) /\ (1000 <= w_next_tid w)%N.

Lemma reducer_put_other (l : list (N * thread)) t th pc :
  t <> reducer_tid -> get_thread l reducer_tid = Some (TReducer pc) ->
  get_thread (put_thread l t th) reducer_tid = Some (TReducer pc).
Proof. intros Hne G. rewrite get_put_other; auto. Qed.

Theorem step_tids w t w' : inv_tids w -> step w t = Some w' -> inv_tids w'.
Proof.
  intros [[pc R] NT] H. split; [|destruct (step_next_tid cfg _ _ _ H) as [-> | ->]; lia].
  (* the reducer's entry is succeeded by one of the reducer; a new thread is not the reducer *)
  destruct (step_keeps cfg _ _ _ _ _ H R) as [(<- & th' & S & G)|[(th2 & NEW & _)|G]]; [|destruct (started_not_reducer _ _ _ _ NEW NT eq_refl)|eauto].
  destruct th'; try contradiction. eauto.
Qed.

Theorem reachable_tids reducers mws progs w : (length progs <= 100)%nat ->
  reachable cfg reducers mws progs w -> inv_tids w.
Proof.
  intros L. apply reachable_ind; [|intros; eapply step_tids; eauto].
  split; [exists RRecv; now apply init_reducer|cbn; unfold first_worker_tid; lia].
Qed.

Lemma pool_idle_reducer w pc : pool_idle w = true ->
  get_thread (w_threads w) reducer_tid = Some (TReducer pc) -> pc = RDone.
Proof.
  intros F G.
  pose proof (forallb_get (fun th => negb (is_pool_thread th) || thread_finished th) _ _ _ F G) as E. cbn in E.
  destruct pc; try discriminate; reflexivity.
Qed.

Lemma pool_idle_client w t r prog pc : pool_idle w = true ->
  get_thread (w_threads w) t = Some (TClient r prog pc) -> r = Client \/ (prog = [] /\ pc = PIdle).
Proof.
  intros F G.
  pose proof (forallb_get (fun th => negb (is_pool_thread th) || thread_finished th) _ _ _ F G) as E.
  destruct r; [now left|right]. destruct prog, pc; try discriminate; auto.
Qed.

(* C04, C15: the barrier. `pool_idle` is what the pool join of stop() waits for. *)
Theorem stop_barrier reducers mws progs w : (length progs <= 100)%nat ->
  reachable cfg reducers mws progs w -> pool_idle w = true ->
  get_thread (w_threads w) reducer_tid = Some (TReducer RDone) /\
  w_tx_open w = false /\ q (w_dq w) = [] /\
  (cfg_pol cfg = Block -> rev (enqs (w_hist w)) = rev (deqs (w_hist w))).
Proof.
  intros L R PI.
  destruct (reachable_tids reducers mws progs w L R) as [[pc G] _].
  pose proof (pool_idle_reducer w pc PI G) as ->.
  pose proof (reachable_close reducers mws progs w R) as CS.
  destruct (reducer_past_closed w RDone CS G eq_refl) as (O & _ & Q).
  split; [exact G|split; [exact O|split; [exact Q|]]].
  intros B. destruct (block_lossless cfg w (reachable_queue cfg reducers mws progs w R) B) as (_ & _ & E).
  rewrite E, Q. now rewrite app_nil_r.
Qed.

(* C04, C15: a stopped store stays quiet. `loud`: the events that must not happen any more. *)
Definition loud (e : event) : bool :=
  match e with
  | ECb XReducer _ => true
  | ECb _ (CbEffectRun _) => true
  | EEnq _ | EEnqExit | EDeq _ | EWrite _ _ | ESpawn _ _ => true
  | ERet _ (CDispatch _ _) ROk => true
  | _ => false
  end.

Definition stopped w : Prop :=
  close_state w /\ inv_tids w /\ pool_idle w = true /\ w_pool w = false.

Lemma loud_cb_chan sid (c : cb State aid) :
  (forall k, c <> CbEffectRun k) -> loud (ECb (XChan sid) c) = false.
Proof. destruct c; intros H; try reflexivity. exfalso. now apply (H k). Qed.

Definition louds h := filter loud h.

Lemma loud_ret t c res : res <> ROk -> loud (ERet t c res) = false.
Proof. destruct c, res; intros N; try reflexivity; now destruct N. Qed.
Lemma call_result_not_ok w prog : call_result w prog <> ROk.
Proof. destruct prog as [|[] ?]; discriminate. Qed.
Lemma unsub_result_not_ok prog : unsub_result (State := State) prog <> ROk.
Proof. destruct prog as [|[] ?]; discriminate. Qed.
#[local] Hint Resolve loud_ret call_result_not_ok unsub_result_not_ok : evs.
#[local] Hint Extern 1 (_ <> _) => discriminate : evs.

Theorem step_stopped w t w' : stopped w -> step w t = Some w' ->
  stopped w' /\ louds (w_hist w') = louds (w_hist w) /\ w_state w' = w_state w.
Proof.
  intros (CS & TI & PI & PO) H.
  assert (CS' : close_state w') by (eapply step_close; eauto).
  assert (TI' : inv_tids w') by (eapply step_tids; eauto).
  destruct TI as [[pc G] _]. pose proof (pool_idle_reducer w pc PI G) as ->.
  destruct (reducer_past_closed w RDone CS G eq_refl) as (O & A & Q).
  assert (NR : t <> reducer_tid).
  { intros ->. unfold World.step in H. rewrite G in H. discriminate H. }
  step_rules H Hh.
  (* the reducer is done; the store is closed: nobody sends on the queue; the pool is taken *)
  all: try (pose proof (dispatching_open _ _ _ _ _ _ _ _ CS TH AT); congruence).
  all: try (destruct (closer_at _ _ _ _ _ _ _ _ CS TH AT) as (_ & ? & _); simp_step; congruence).
  all: try open_at AT.
  (* the rules of the reducer: t is not its thread (NR, or TH against G) *)
  all: try congruence.
  (* a worker of the pool is finished: it does not step *)
  all: try (destruct (pool_idle_client _ _ _ _ _ PI TH) as [->|[-> E]]; try congruence).
  (* what remains are clients and channeled subscribers: nothing loud, the pool stays idle *)
  all: split; [split; [exact CS'|split; [exact TI'|split;
         [unfold pool_idle in *; simp_step;
          repeat apply (forallb_put (fun th => negb (is_pool_thread th) || thread_finished th)); auto|exact PO]]]
              |split; [rewrite Hh; apply (filter_quiet loud); auto with evs|reflexivity]].
Qed.

Theorem run_stopped : forall sched w w', stopped w -> run cfg w sched = Some w' ->
  stopped w' /\ louds (w_hist w') = louds (w_hist w) /\ w_state w' = w_state w.
Proof.
  intros sched w w' S. apply (run_invariant cfg (fun w' => stopped w' /\ louds (w_hist w') = louds (w_hist w) /\ w_state w' = w_state w)); [|auto].
  intros w1 t w2 (S1 & L1 & ST1) E. destruct (step_stopped w1 t w2 S1 E) as (S2 & L2 & ST2). split; [exact S2|split; congruence].
Qed.

(* the world in which a stop() that took the pool returns is a stopped world *)
Theorem stop_return_stopped reducers mws progs w : (length progs <= 100)%nat ->
  reachable cfg reducers mws progs w -> pool_idle w = true -> w_pool w = false -> stopped w.
Proof.
  intros L R PI PO. split; [eapply reachable_close; eauto|split; [eapply reachable_tids; eauto|auto]].
Qed.

End WorldStop.
