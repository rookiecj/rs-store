(* PipelineProofs.v — characterisation of the per-action pipeline (C12, pure parts of C01, C03, C07). *)
From RS Require Import Base Pipeline.

Section PipelineProofs.
Context {State Action Eff : Type}.
Variable eid : Eff -> N.
Notation reducer := (reducer State Action Eff).
Notation middleware := (middleware State Action Eff).
Notation cb := (cb State Action).

(* the verdicts of the hooks that are called: up to and including the first Break *)
Fixpoint upto_break (vs : list verdict) : list verdict :=
  match vs with
  | [] => []
  | VBreak :: _ => [VBreak]
  | v :: r => v :: upto_break r
  end.

Definition any_done (vs : list verdict) : bool := existsb (verdict_eqb VDone) vs.

Lemma upto_break_length vs : length (upto_break vs) <= length vs.
Proof. induction vs as [|v r IH]; cbn; [lia|]. destruct v; cbn; lia. Qed.

Lemma upto_break_prefix vs : exists rest, vs = (upto_break vs) ++ rest.
Proof.
  induction vs as [|v r [rest IH]]; [exists []; reflexivity|].
  destruct v; cbn; try (exists rest; now rewrite <- IH). exists r. reflexivity.
Qed.

Lemma upto_break_break_last vs l1 l2 : upto_break vs = l1 ++ VBreak :: l2 -> l2 = [].
Proof.
  revert l1. induction vs as [|v r IH]; intros [|x l1] H; try discriminate H.
  - destruct v; try discriminate H. now injection H.
  - destruct v; injection H as _ H; try (eapply IH, H). destruct l1; discriminate H.
Qed.

Fixpoint count_err (vs : list verdict) : nat :=
  match vs with [] => 0 | VErr :: r => S (count_err r) | _ :: r => count_err r end.
Definition is_on_error (e : cb) : bool := match e with CbOnError _ _ => true | _ => false end.

(* the events of a before_reduce and of a before_dispatch phase are one list under two constructors:
   `br_events`, `bd_events` below are `hook_events` at their constructor and hook, and convertible
   with it (the same `fix`), so a lemma of this section applies to either as it is *)
Section Hook.
Variable C : nat -> Action -> State -> verdict -> cb.
Variable h : hook.

Fixpoint hook_events (i : nat) (a : Action) (s : State) (vs : list verdict) : list cb :=
  match vs with
  | [] => []
  | v :: r => (C i a s v :: err_ev i h v) ++ hook_events (S i) a s r
  end.

(* a class of callbacks that holds of the hook's call and of its on_error holds of every event *)
Lemma hook_events_all (P : cb -> Prop) : (forall i a s v, P (C i a s v)) -> (forall i, P (CbOnError i h)) ->
  forall vs i a s, Forall P (hook_events i a s vs).
Proof.
  intros PC PE. induction vs as [|v r IH]; intros i a s; cbn [hook_events]; [constructor|].
  apply Forall_app. split; [|apply IH]. constructor; [apply PC|]. destruct v; cbn; auto.
Qed.

Lemma hook_events_errors : (forall i a s v, is_on_error (C i a s v) = false) -> forall vs i a s,
  length (filter is_on_error (hook_events i a s vs)) = count_err vs.
Proof.
  intros NE. induction vs as [|v r IH]; intros i a s; [reflexivity|].
  cbn [hook_events app filter]. rewrite NE, filter_app, app_length, IH. now destruct v.
Qed.
End Hook.

Fixpoint br_events (i : nat) (a : Action) (s : State) (vs : list verdict) : list cb :=
  match vs with
  | [] => []
  | v :: r => (CbBeforeReduce i a s v :: err_ev i HReduce v) ++ br_events (S i) a s r
  end.

Lemma br_phase_spec : forall (mws : list middleware) i a s flag,
  br_phase i mws a s flag =
  let vs := upto_break (map (fun m => mw_br m a s) mws) in
  (flag && negb (any_done vs), length vs, br_events i a s vs).
Proof.
  induction mws as [|m r IH]; intros i a s flag; cbn [br_phase map].
  - now rewrite andb_true_r.
  - destruct (mw_br m a s); rewrite ?IH; now rewrite ?andb_true_r, ?andb_false_r.
Qed.

Fixpoint bd_events (i : nat) (a : Action) (s : State) (vs : list verdict) : list cb :=
  match vs with
  | [] => []
  | v :: r => (CbBeforeDispatch i a s v :: err_ev i HDispatch v) ++ bd_events (S i) a s r
  end.

Lemma bd_phase_spec : forall (mws : list middleware) i a s flag,
  bd_phase i mws a s flag =
  let vs := upto_break (map (fun m => mw_bd m a s) mws) in
  (flag && negb (any_done vs), length vs, bd_events i a s vs).
Proof.
  induction mws as [|m r IH]; intros i a s flag; cbn [bd_phase map].
  - now rewrite andb_true_r.
  - destruct (mw_bd m a s); rewrite ?IH; now rewrite ?andb_true_r, ?andb_false_r.
Qed.

(* per hook called: the list it received, the list it left, its verdict *)
Fixpoint be_trace (mws : list middleware) (a : Action) (s : State) (effs : list Eff)
  : list (list Eff * list Eff * verdict) :=
  match mws with
  | [] => []
  | m :: r =>
      let '(effs1, v) := mw_be m a s effs in
      (effs, effs1, v) :: match v with VBreak => [] | _ => be_trace r a s effs1 end
  end.

Fixpoint be_events (i : nat) (a : Action) (s : State) (tr : list (list Eff * list Eff * verdict)) : list cb :=
  match tr with
  | [] => []
  | (ein, eout, v) :: r =>
      (CbBeforeEffect i a s (map eid ein) (map eid eout) v :: err_ev i HEffect v) ++ be_events (S i) a s r
  end.

Definition be_final (effs : list Eff) (tr : list (list Eff * list Eff * verdict)) : list Eff :=
  match rev tr with [] => effs | (_, eout, _) :: _ => eout end.

Lemma be_final_cons effs ein eout v tr : be_final effs ((ein, eout, v) :: tr) = be_final eout tr.
Proof. unfold be_final. cbn [rev]. now destruct (rev tr). Qed.

Lemma be_phase_spec : forall (mws : list middleware) i a s effs,
  be_phase eid i mws a s effs =
  let tr := be_trace mws a s effs in (be_final effs tr, length tr, be_events i a s tr).
Proof.
  induction mws as [|m r IH]; intros i a s effs; cbn [be_phase be_trace]; [reflexivity|].
  destruct (mw_be m a s effs) as [effs1 v].
  destruct v; rewrite ?IH; now rewrite be_final_cons.
Qed.

Lemma be_trace_head : forall (mws : list middleware) a s effs x tr,
  be_trace mws a s effs = x :: tr -> fst (fst x) = effs.
Proof.
  intros [|m r] a s effs x tr H; cbn [be_trace] in H; [discriminate|].
  destruct (mw_be m a s effs). now injection H as <- _.
Qed.

Lemma be_trace_chain : forall (mws : list middleware) a s effs tr1 x y tr2,
  be_trace mws a s effs = tr1 ++ x :: y :: tr2 -> fst (fst y) = snd (fst x).
Proof.
  induction mws as [|m r IH]; intros a s effs tr1 x y tr2 H; cbn [be_trace] in H.
  - destruct tr1; discriminate.
  - destruct (mw_be m a s effs) as [effs1 v]. destruct tr1 as [|z tr1]; injection H as <- H.
    + (* x is the first call, y the head of the trace of the remaining hooks *)
      destruct v; try discriminate H; now apply be_trace_head in H.
    + destruct v; try (eapply IH, H). destruct tr1; discriminate H.
Qed.

(* per reducer called: its index, the state it received, its answer *)
Fixpoint chain_calls (j : nat) (rs : list reducer) (s : State) (a : Action)
  : list (nat * State * dop State Eff) :=
  match rs with
  | [] => []
  | r :: rest => (j, s, r s a) :: chain_calls (S j) rest (dop_state (r s a)) a
  end.

Definition call_event (a : Action) (c : nat * State * dop State Eff) : cb :=
  let '(j, sin, d) := c in
  CbReduce j sin a (dop_disp d) (dop_state d) (option_map eid (dop_eff d)).

Definition chain_state (s : State) (calls : list (nat * State * dop State Eff)) : State :=
  match rev calls with [] => s | (_, _, d) :: _ => dop_state d end.
Definition chain_disp (nd : bool) (calls : list (nat * State * dop State Eff)) : bool :=
  match rev calls with [] => nd | (_, _, d) :: _ => dop_disp d end.
Definition chain_effs (calls : list (nat * State * dop State Eff)) : list Eff :=
  flat_map (fun c => opt_to_list (dop_eff (snd c))) calls.

Lemma chain_state_cons s j sin d calls :
  chain_state s ((j, sin, d) :: calls) = chain_state (dop_state d) calls.
Proof. unfold chain_state. cbn [rev]. now destruct (rev calls). Qed.
Lemma chain_disp_cons nd j sin d calls :
  chain_disp nd ((j, sin, d) :: calls) = chain_disp (dop_disp d) calls.
Proof. unfold chain_disp. cbn [rev]. now destruct (rev calls). Qed.

Lemma run_reducers_spec : forall (rs : list reducer) j s a effs nd,
  run_reducers eid j rs s a effs nd =
  let calls := chain_calls j rs s a in
  (chain_state s calls, effs ++ chain_effs calls, chain_disp nd calls, map (call_event a) calls).
Proof.
  induction rs as [|r rest IH]; intros j s a effs nd; cbn [run_reducers chain_calls].
  - now rewrite app_nil_r.
  - rewrite IH, chain_state_cons, chain_disp_cons.
    cbn [snd map call_event chain_effs flat_map]. now rewrite <- app_assoc.
Qed.

(* C01, C07: every reducer is called exactly once, in registration order *)
Lemma chain_calls_length rs j s a : length (chain_calls j rs s a) = length rs.
Proof. revert j s; induction rs as [|r rest IH]; intros; cbn; [reflexivity|now rewrite IH]. Qed.

Lemma chain_calls_index : forall (rs : list reducer) j s a k c,
  nth_error (chain_calls j rs s a) k = Some c -> fst (fst c) = j + k.
Proof.
  induction rs as [|r rest IH]; intros j s a [|k] c H; try discriminate H; cbn in H.
  - injection H as <-. cbn. lia.
  - apply IH in H. lia.
Qed.

Lemma chain_calls_head : forall (rs : list reducer) j s a x l,
  chain_calls j rs s a = x :: l -> snd (fst x) = s.
Proof. intros [|r rest] j s a x l H; [discriminate|]. now injection H as <- _. Qed.
Lemma chain_calls_threading : forall (rs : list reducer) j s a l1 x y l2,
  chain_calls j rs s a = l1 ++ x :: y :: l2 -> snd (fst y) = dop_state (snd x).
Proof.
  induction rs as [|r rest IH]; intros j s a [|z l1] x y l2 H; try discriminate H; injection H as <- H.
  - now apply chain_calls_head in H.
  - eapply IH, H.
Qed.

Lemma chain_calls_answer : forall (rs : list reducer) j s a k c,
  nth_error (chain_calls j rs s a) k = Some c ->
  exists r, nth_error rs k = Some r /\ snd c = r (snd (fst c)) a.
Proof.
  induction rs as [|r rest IH]; intros j s a [|k] c H; try discriminate H; cbn in H.
  - injection H as <-. now exists r.
  - eapply IH, H.
Qed.

Definition br_verdicts (mws : list middleware) a s := upto_break (map (fun m => mw_br m a s) mws).
Definition bd_verdicts (mws : list middleware) a s := upto_break (map (fun m => mw_bd m a s) mws).

Definition vetoed (mws : list middleware) a s : bool := any_done (br_verdicts mws a s).

Lemma do_reduce_spec (mws : list middleware) (rs : list reducer) s a :
  do_reduce eid mws rs s a =
  let vs := br_verdicts mws a s in
  if vetoed mws a s
  then (true, s, [], false, length vs, br_events 0 a s vs)
  else let calls := chain_calls 0 rs s a in
       (chain_disp true calls, chain_state s calls, chain_effs calls, true, length vs,
        br_events 0 a s vs ++ map (call_event a) calls).
Proof.
  unfold do_reduce, vetoed. rewrite br_phase_spec. cbn [andb].
  destruct (any_done _); [reflexivity|].
  rewrite run_reducers_spec. reflexivity.
Qed.

Definition post_state (mws : list middleware) (rs : list reducer) s a : State :=
  if vetoed mws a s then s else chain_state s (chain_calls 0 rs s a).
Definition returned_effs (mws : list middleware) (rs : list reducer) s a : list Eff :=
  if vetoed mws a s then [] else chain_effs (chain_calls 0 rs s a).
Definition need_dispatch (mws : list middleware) (rs : list reducer) s a : bool :=
  if vetoed mws a s then true else chain_disp true (chain_calls 0 rs s a).
Definition reduce_events (mws : list middleware) (rs : list reducer) s a : list cb :=
  if vetoed mws a s then [] else map (call_event a) (chain_calls 0 rs s a).

Lemma post_run (mws : list middleware) rs s a : vetoed mws a s = false ->
  chain_state s (chain_calls 0 rs s a) = post_state mws rs s a /\
  chain_disp true (chain_calls 0 rs s a) = need_dispatch mws rs s a.
Proof. intros V. unfold post_state, need_dispatch. now rewrite V. Qed.
Lemma post_vetoed (mws : list middleware) rs s a : vetoed mws a s = true ->
  s = post_state mws rs s a /\ true = need_dispatch mws rs s a.
Proof. intros V. unfold post_state, need_dispatch. now rewrite V. Qed.

Theorem process_action_spec (mws : list middleware) (rs : list reducer) (subs : list N) s a :
  let s' := post_state mws rs s a in
  let effs := returned_effs mws rs s a in
  let tr := be_trace mws a s' effs in
  let nd := need_dispatch mws rs s a in
  let bdv := bd_verdicts mws a s' in
  let notify := nd && negb (any_done bdv) in
  process_action eid mws rs subs s a =
  mkOutcome s' (be_final effs tr) notify
    (br_events 0 a s (br_verdicts mws a s) ++ reduce_events mws rs s a ++
     be_events 0 a s' tr ++
     (if nd then bd_events 0 a s' bdv else []) ++
     (if notify then map (fun i => CbNotify i s' a) subs else []))
    (negb (vetoed mws a s)) (length effs)
    (length (br_verdicts mws a s) + length tr + (if nd then length bdv else 0))
    nd (if notify then length subs else 0).
Proof.
  unfold process_action. rewrite do_reduce_spec.
  unfold post_state, returned_effs, need_dispatch, reduce_events.
  destruct (vetoed mws a s); rewrite be_phase_spec.
  2: destruct (chain_disp true _); cbn [andb];
       [|now rewrite <- app_assoc, !app_nil_r, Nat.add_0_r].
  all: rewrite bd_phase_spec; cbn [andb].
  all: destruct (any_done _); cbn [negb]; now rewrite <- ?app_assoc, ?app_nil_r.
Qed.

Lemma be_events_all (P : cb -> Prop) :
  (forall i a s ein eout v, P (CbBeforeEffect i a s ein eout v)) -> (forall i, P (CbOnError i HEffect)) ->
  forall tr i a s, Forall P (be_events i a s tr).
Proof.
  intros PC PE. induction tr as [|[[ein eout] v] r IH]; intros i a s; cbn [be_events]; [constructor|].
  apply Forall_app. split; [|apply IH]. constructor; [apply PC|]. destruct v; cbn; auto.
Qed.


(* C12: one on_error per Err verdict *)
Lemma br_events_errors : forall vs i a s,
  length (filter is_on_error (br_events i a s vs)) = count_err vs.
Proof. now apply (hook_events_errors CbBeforeReduce HReduce). Qed.
Lemma bd_events_errors : forall vs i a s,
  length (filter is_on_error (bd_events i a s vs)) = count_err vs.
Proof. now apply (hook_events_errors CbBeforeDispatch HDispatch). Qed.

(* ... and Err is otherwise treated as Continue *)
Definition soften (v : verdict) : verdict := match v with VErr => VContinue | _ => v end.
Lemma upto_break_soften vs : upto_break (map soften vs) = map soften (upto_break vs).
Proof. induction vs as [|v r IH]; [reflexivity|]. destruct v; cbn; rewrite ?IH; reflexivity. Qed.
Lemma any_done_soften vs : any_done (map soften vs) = any_done vs.
Proof. unfold any_done. induction vs as [|v r IH]; [reflexivity|]. destruct v; cbn; rewrite ?IH; reflexivity. Qed.

Definition is_reduce (e : cb) : bool := match e with CbReduce _ _ _ _ _ _ => true | _ => false end.
Definition is_notify (e : cb) : bool := match e with CbNotify _ _ _ => true | _ => false end.

Lemma filter_const {X} (f : X -> bool) b l :
  Forall (fun x => f x = b) l -> filter f l = if b then l else [].
Proof. induction 1 as [|x l E _ IH]; cbn; [|rewrite E, IH]; now destruct b. Qed.
Lemma filter_nil {X} (f : X -> bool) l : filter f l = [] <-> forall x, In x l -> f x = false.
Proof.
  split; [|intros H; now apply (filter_const f false), Forall_forall].
  intros E x H. destruct (f x) eqn:F; [|reflexivity].
  assert (I : In x (filter f l)) by now apply filter_In. now rewrite E in I.
Qed.

(* hook calls and on_error are invisible to a test f of the reducer calls or the subscriber calls *)
Lemma filter_action_events (f : cb -> bool) br bn (mws : list middleware) (rs : list reducer) subs s a :
  (forall e, f e = if is_reduce e then br else if is_notify e then bn else false) ->
  let o := process_action eid mws rs subs s a in
  filter f (o_events o) =
  (if br then reduce_events mws rs s a else []) ++
  (if bn then if o_notified o then map (fun i => CbNotify i (post_state mws rs s a) a) subs else [] else []).
Proof.
  intros Hf. rewrite process_action_spec. cbn [o_events o_notified]. rewrite !filter_app.
  rewrite (filter_const f false (br_events _ _ _ _)), (filter_const f br (reduce_events _ _ _ _)),
    (filter_const f false (be_events _ _ _ _)),
    (filter_const f false (if need_dispatch _ _ _ _ then _ else _)),
    (filter_const f bn (if _ && _ then _ else _)); [reflexivity|..].
  - destruct (_ && _); [|constructor]. apply Forall_map, Forall_forall. intros i _. now rewrite Hf.
  - destruct (need_dispatch _ _ _ _); [|constructor].
    apply (hook_events_all CbBeforeDispatch HDispatch); intros; now rewrite Hf.
  - apply be_events_all; intros; now rewrite Hf.
  - unfold reduce_events. destruct (vetoed mws a s); [constructor|].
    apply Forall_map, Forall_forall. intros [[j sin] d] _. now rewrite Hf.
  - apply (hook_events_all CbBeforeReduce HReduce); intros; now rewrite Hf.
Qed.

Lemma events_reduce (mws : list middleware) (rs : list reducer) subs s a :
  filter is_reduce (o_events (process_action eid mws rs subs s a)) = reduce_events mws rs s a.
Proof. rewrite (filter_action_events is_reduce true false) by now intros []. apply app_nil_r. Qed.
Lemma events_notify (mws : list middleware) (rs : list reducer) subs s a :
  let o := process_action eid mws rs subs s a in
  filter is_notify (o_events o) =
  if o_notified o then map (fun i => CbNotify i (post_state mws rs s a) a) subs else [].
Proof. apply (filter_action_events is_notify false true). now intros []. Qed.

(* C12, DoneAction from before_reduce: no reducer is called, the state is unchanged *)
Theorem veto_skips_reducers (mws : list middleware) (rs : list reducer) subs s a :
  vetoed mws a s = true ->
  let o := process_action eid mws rs subs s a in
  o_state o = s /\ o_reduced o = false /\ (forall e, In e (o_events o) -> is_reduce e = false).
Proof.
  intros V. cbn zeta. rewrite <- filter_nil, events_reduce, process_action_spec.
  cbn [o_state o_reduced]. unfold post_state, reduce_events. now rewrite V.
Qed.

(* C12: without a veto the whole chain runs and its result becomes the state *)
Theorem no_veto_runs_chain (mws : list middleware) (rs : list reducer) subs s a :
  vetoed mws a s = false ->
  let o := process_action eid mws rs subs s a in
  let calls := chain_calls 0 rs s a in
  o_state o = chain_state s calls /\ o_reduced o = true /\
  filter is_reduce (o_events o) = map (call_event a) calls.
Proof.
  intros V. cbn zeta. rewrite events_reduce, process_action_spec.
  cbn [o_state o_reduced]. unfold post_state, reduce_events. now rewrite V.
Qed.

(* C12, DoneAction from before_dispatch: subscribers are not called, the new state is kept *)
Theorem done_dispatch_suppresses (mws : list middleware) (rs : list reducer) subs s a :
  any_done (bd_verdicts mws a (post_state mws rs s a)) = true ->
  let o := process_action eid mws rs subs s a in
  o_state o = post_state mws rs s a /\ o_notified o = false /\
  (forall e, In e (o_events o) -> is_notify e = false).
Proof.
  intros D. cbn zeta. rewrite <- filter_nil, events_notify, process_action_spec.
  cbn [o_state o_notified]. now rewrite D, andb_false_r.
Qed.

(* C03: subscribers are called iff the last reducer answered Dispatch (or there was none, or the
   action was vetoed) and no called before_dispatch hook answered Done; then each once, in
   registration order, with the new state and the action *)
Theorem notify_exactly (mws : list middleware) (rs : list reducer) subs s a :
  let o := process_action eid mws rs subs s a in
  let s' := post_state mws rs s a in
  o_notified o = need_dispatch mws rs s a && negb (any_done (bd_verdicts mws a s')) /\
  filter is_notify (o_events o) = if o_notified o then map (fun i => CbNotify i s' a) subs else [].
Proof. split; [now rewrite process_action_spec|apply events_notify]. Qed.

(* C12, ContinueAction changes nothing: with all-Continue identity middlewares the state, the
   spawned effects and the notifications are those of the store without middleware *)
Definition mw_identity (m : middleware) : Prop :=
  (forall a s, mw_br m a s = VContinue) /\ (forall a s l, mw_be m a s l = (l, VContinue)) /\
  (forall a s, mw_bd m a s = VContinue).

Lemma identity_verdicts (g : middleware -> verdict) mws :
  (forall m, mw_identity m -> g m = VContinue) -> Forall mw_identity mws ->
  any_done (upto_break (map g mws)) = false.
Proof.
  intros Hg. induction 1 as [|m r Hm _ IH]; [reflexivity|]. cbn [map]. now rewrite (Hg m Hm).
Qed.
Lemma identity_br (mws : list middleware) a s : Forall mw_identity mws ->
  any_done (br_verdicts mws a s) = false.
Proof. apply identity_verdicts. intros m Hm. apply Hm. Qed.
Lemma identity_bd (mws : list middleware) a s : Forall mw_identity mws ->
  any_done (bd_verdicts mws a s) = false.
Proof. apply identity_verdicts. intros m Hm. apply Hm. Qed.
Lemma identity_be (mws : list middleware) a s effs : Forall mw_identity mws ->
  be_final effs (be_trace mws a s effs) = effs.
Proof.
  induction 1 as [|m r Hm _ IH]; [reflexivity|].
  cbn [be_trace]. destruct Hm as (_ & H1 & _). now rewrite H1, be_final_cons.
Qed.

Theorem continue_changes_nothing (mws : list middleware) (rs : list reducer) subs s a :
  Forall mw_identity mws ->
  let o := process_action eid mws rs subs s a in
  let o0 := process_action eid [] rs subs s a in
  o_state o = o_state o0 /\ o_spawn o = o_spawn o0 /\ o_notified o = o_notified o0 /\
  filter is_reduce (o_events o) = filter is_reduce (o_events o0) /\
  filter is_notify (o_events o) = filter is_notify (o_events o0).
Proof.
  intros H. cbn zeta. rewrite !events_reduce, !events_notify, !process_action_spec.
  cbn [o_state o_spawn o_notified].
  (* either side depends on the middlewares through these three values only *)
  unfold post_state, returned_effs, need_dispatch, reduce_events, vetoed.
  rewrite (identity_br mws), (identity_be mws), (identity_bd mws) by assumption. cbn. auto 6.
Qed.

End PipelineProofs.
