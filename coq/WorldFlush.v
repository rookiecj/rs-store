(* WorldFlush.v — channeled subscribers (C10): when the thread of a channeled subscriber has
   ended, its channel is disconnected and EMPTY: everything that was queued for it has been
   delivered. unsubscribe() and the shutdown release return only after that thread has ended
   (PUnsubJoin / RClearJoin), hence only after the flush. Proved for programs without state
   iterators (whose early release is the known finding F5), an instance of the fragment invariant
   `inv_kinds f`. *)
From RS Require Import Base Channel ChannelProofs Script World WorldTactics Hist WorldStep WorldProofs WorldQueue WorldSubs WorldSids.

Section WorldFlush.
Context {State : Type}.
Variable cfg : wconfig (State := State).
Notation step := (step cfg).
Notation thread := (thread (State := State)).
Implicit Types w : World.world (State := State).

(* The kinds of subscriber a run uses: `f` says which. A call is of the fragment if it registers none
   of another kind; then every subscriber entry in use is of a kind that `f` has (`subs_in`,
   WorldSids.v). `k_pc` is what that does not say: a pc that holds no entry and exists for iterators
   only; that the reducer sends to a forwarding entry. *)
Section Kinds.
Variable f : subkind -> bool.
Definition k_call (c : call) : Prop :=
  match c with
  | CAddSubscriber _ => f SKDirect = true
  | CSubscribeSelector _ sel => f (SKSelector sel) = true
  | CSubscribed _ _ _ => f SKChan = true
  | CIter _ _ _ | CNext _ | CDrain _ => f SKIter = true
  | _ => True
  end.
Definition of_kind (x : subentry) : Prop := f (se_kind x) = true.
Definition k_pc (th : thread) : Prop :=
  match th with
  | TClient _ _ (PNextRecv _) => f SKIter = true
  | TReducer (RNotifySend _ _ cur _ _ _) => forwards cur
  | _ => True
  end.
Definition inv_kinds w : Prop :=
  threads_all (progs_all (fun _ => k_call)) (w_threads w) /\ threads_all k_pc (w_threads w) /\ subs_in of_kind w.

Lemma k_reg c : k_call c -> Forall of_kind (reg_sub c).
Proof. destruct c; cbn; auto. Qed.

Theorem step_kinds w t w' : inv_kinds w -> step w t = Some w' -> inv_kinds w'.
Proof.
  intros (TP & T & S) H.
  split; [exact (step_progs cfg _ (fun _ _ _ => I) (fun _ => I) _ _ _ H TP)|].
  pose proof (TP t) as FP. apply step_inv in H as [evs H].
  (* an entry is of the kind of the call that registers it *)
  enough (threads_all k_pc (w_threads w') /\ Forall (invoked_in of_kind) evs) as [K N]
    by (split; [exact K|exact (Step_subs_in cfg of_kind _ _ _ _ H N S)]).
  destruct_Step H; specialize (FP _ TH); simp_step; (split; [repeat apply threads_all_put; try exact T; try exact I|auto with evs]).
  all: try (autounfold with next_pc; repeat break_goal_match; exact I).
  all: try (subst prog; apply Forall_inv in FP; constructor; [exact (k_reg _ FP)|auto with evs]).
  - (* CS_invoke *) subst prog. apply Forall_inv in FP. destruct c; try exact I; cbn; destruct (memN _ _); auto.
  - (* RS_forward *) destruct AT as [(_ & _ & F & _)| ->]; [exact F|exact (T _ _ TH)].
Qed.
Theorem reachable_kinds reducers mws progs w : Forall (Forall k_call) progs ->
  reachable cfg reducers mws progs w -> inv_kinds w.
Proof.
  intros FP. apply reachable_ind; [|intros; eapply step_kinds; eauto].
  split; [|split; [|split; [constructor|]]]; apply init_threads_all; cbn; auto. now apply Forall_forall.
Qed.
End Kinds.

(* cf: the channel fragment, every call but those of iterators *)
Definition cf_call (c : call) : Prop :=
  match c with CIter _ _ _ | CNext _ | CDropIter _ | CDrain _ => False | _ => True end.
Definition noiter_kind (k : subkind) : bool := match k with SKIter => false | _ => true end.
Definition inv_cf := inv_kinds noiter_kind.

Lemma cf_k_call c : cf_call c -> k_call noiter_kind c.
Proof. destruct c; cbn; auto. Qed.

(* the rules that serve iterators: what the thread that takes one looks like *)
Definition iter_step (subs : list subentry) (th : thread) : Prop :=
  match th with
  | TClient _ prog pc =>
      match prog with CIter _ _ _ :: _ => True | _ => False end \/
      match pc with
      | PUnsubIterSend _ _ | PNextRecv _ => True
      | PUnsubLock sid => exists se, find_sub subs sid = Some se /\ se_kind se = SKIter
      | _ => False
      end
  | TReducer pc => exists sid rest ph, clearing_iter pc sid rest ph
  | TChan _ _ => False
  end.

(* in the fragment no thread takes one: CS_iter, CS_unsub_send, CS_unsub_sent, CS_next_*, RS_clear_send,
   RS_clear_sent do not occur *)
Lemma cf_no_iter_step w t th : inv_cf w -> get_thread (w_threads w) t = Some th -> ~ iter_step (w_subs w) th.
Proof.
  intros (TP & T & S & TS) G. apply TP in G as FP. apply T in G as K. apply TS in G as X.
  destruct th as [r prog pc|pc|]; cbn in *; [|intros (sid & rest & ph & [(x & -> & KIND & _)| ->])|auto].
  - intros [P|P].
    + destruct FP as [|[] ? F]; auto; discriminate.
    + destruct pc; auto; try discriminate; [|apply Forall_inv in X; discriminate X].
      destruct P as (se & F & KIND). pose proof (Forall_inv (found_in _ _ _ _ _ S F KIND)) as Y. discriminate Y.
  - apply Forall_inv in X. unfold of_kind in X. rewrite KIND in X. discriminate X.
  - apply Forall_inv in X. discriminate X.
Qed.

Lemma cf_sending w t a s cur rest n ph : inv_cf w ->
  get_thread (w_threads w) t = Some (TReducer (RNotifySend a s cur rest n ph)) -> se_kind cur = SKChan.
Proof.
  intros (_ & T & _ & TS) G. apply TS in G as X. apply Forall_inv in X. unfold of_kind in X.
  destruct (T _ _ G) as [K|K]; [exact K|]. rewrite K in X. discriminate X.
Qed.

Definition inv_no_exit w : Prop := chans_all (fun c => ~ In IExit (q c)) (w_chans w).

Theorem step_no_exit w t w' : inv_cf w -> inv_no_exit w -> step w t = Some w' -> inv_no_exit w'.
Proof.
  intros CF NE H. step_cases H; try open_start AT.
  all: try exact NE.
  (* the rules that send an exit marker serve iterators *)
  all: try (destruct (cf_no_iter_step _ _ _ CF TH); try subst prog; cbn; eauto; fail).
  - (* CS_subscribed *) apply chans_all_put; [exact NE|intros []].
  - (* CS_unsub_ctx *) apply chans_all_hang_up; auto.
  - (* RS_forward *) apply chans_all_put; [exact NE|]. exact (send_no_exit _ _ _ _ _ _ SEND ltac:(discriminate) (NE _ _ CHAN)).
  - (* RS_forwarded *) apply chans_all_put; [exact NE|]. exact (send_no_exit _ _ _ _ _ _ SEND ltac:(discriminate) (NE _ _ CHAN)).
  - (* RS_clear_ctx *) apply chans_all_hang_up; auto.
  - (* HS_deliver *) apply chans_all_put; [exact NE|]. intros I. apply (NE _ _ CHAN). rewrite HEAD. now right.
  - (* HS_exit *) apply chans_all_put; [exact NE|]. intros I. apply (NE _ _ CHAN). rewrite HEAD. now right.
Qed.

Definition alive (l : list (N * chan (State * aid))) (sid : N) : Prop :=
  exists c, get_chan l sid = Some c /\ tx_alive c = true.

Lemma alive_put l sid c sid0 : alive l sid0 -> (sid = sid0 -> tx_alive c = true) -> alive (put_chan l sid c) sid0.
Proof.
  intros (c0 & G & A) H. destruct (N.eq_dec sid0 sid) as [->|NE].
  - exists c. rewrite get_put_chan_same. auto.
  - exists c0. rewrite get_put_chan_other by exact NE. auto.
Qed.
Lemma alive_put_same l sid c c' sid0 : get_chan l sid = Some c -> tx_alive c' = tx_alive c ->
  alive l sid0 -> alive (put_chan l sid c') sid0.
Proof. intros G E A. apply alive_put; [exact A|]. destruct A as (c0 & G0 & A). intros <-. congruence. Qed.
Lemma alive_hang_up l sid sid0 : sid0 <> sid -> alive l sid0 -> alive (hang_up l sid) sid0.
Proof.
  unfold hang_up. intros NE A. destruct (get_chan l sid); [|exact A]. apply alive_put; [exact A|]. now intros <-.
Qed.

Definition fwd_alive l (pc : rpc (State := State)) : Prop :=
  match pc with RNotifySend _ _ cur _ _ _ => alive l (se_id cur) | _ => True end.
Definition inv_fwd_alive w : Prop :=
  forall pc, get_thread (w_threads w) reducer_tid = Some (TReducer pc) -> fwd_alive (w_chans w) pc.

Lemma fwd_alive_mono l l' pc : (forall sid, alive l sid -> alive l' sid) -> fwd_alive l pc -> fwd_alive l' pc.
Proof. destruct pc; cbn; auto. Qed.
Lemma fwd_alive_rpc w pc : fwd_alive (w_chans w) pc -> inv_fwd_alive (set_rpc w pc).
Proof. intros A pc' G. cbn in G. rewrite get_put_same in G. now injection G as <-. Qed.

Lemma forwarding_alive w pc a s x rest n ph : inv_fwd_alive w ->
  get_thread (w_threads w) reducer_tid = Some (TReducer pc) -> forwarding w pc a s x rest n ph ->
  alive (w_chans w) (se_id x).
Proof. intros K TH [(_ & _ & _ & A)| ->]; [exact A|exact (K _ TH)]. Qed.

Lemma ctx_free_get w sid t th : ctx_free w sid = true -> get_thread (w_threads w) t = Some th -> holds_ctx sid th = false.
Proof. apply free_get. Qed.

(* while the reducer forwards to a channeled subscriber it holds that subscriber's context lock *)
Lemma ctx_free_forwarding w sid t a s cur rest n ph : inv_cf w -> ctx_free w sid = true ->
  get_thread (w_threads w) t = Some (TReducer (RNotifySend a s cur rest n ph)) -> se_id cur <> sid.
Proof.
  intros CF F G. apply (free_get (holds_ctx sid) _ _ _ F) in G as X.
  cbn in X. rewrite (cf_sending _ _ _ _ _ _ _ _ CF G) in X. now apply N.eqb_neq in X.
Qed.

Theorem step_fwd_alive w t w' : inv_cf w -> inv_fwd_alive w -> step w t = Some w' -> inv_fwd_alive w'.
Proof.
  intros CF K H kpc G'.
  (* a client or a subscriber's thread leaves the reducer's entry as it is *)
  pose proof (fun NR => step_keeps_reducer cfg w t w' _ _ H NR G') as G.
  step_cases H; try open_start AT.
  all: try (destruct (cf_no_iter_step _ _ _ CF TH); try subst prog; cbn; eauto; fail).
  all: try (specialize (G ltac:(congruence)); clear G'; pose proof (K _ G) as A; try exact A).
  (* the reducer is inside a forwarding send after RS_forward only *)
  all: try (clear G; revert kpc G'; apply fwd_alive_rpc;
            autounfold with next_pc; repeat break_goal_match; exact I).
  - (* CS_subscribed *) revert A. apply fwd_alive_mono. intros sid0 A. now apply alive_put.
  - (* CS_unsub_ctx *)
    destruct kpc; try exact I. apply alive_hang_up; [eapply ctx_free_forwarding; eauto|exact A].
  - (* RS_forward *)
    clear G; revert kpc G'; apply fwd_alive_rpc. apply send_alive in SEND.
    exact (alive_put_same _ _ _ _ _ CHAN SEND (forwarding_alive _ _ _ _ _ _ _ _ K TH AT)).
  - (* HS_deliver *)
    revert A. apply fwd_alive_mono. intros sid0. apply (alive_put_same _ _ _ _ _ CHAN). reflexivity.
  - (* HS_exit *)
    revert A. apply fwd_alive_mono. intros sid0. apply (alive_put_same _ _ _ _ _ CHAN). reflexivity.
Qed.

Definition flushed := chan_at (State := State) (fun c => q c = [] /\ tx_alive c = false).
Definition inv_flushed w : Prop :=
  forall sid, get_thread (w_threads w) (chan_tid sid) = Some (TChan sid true) -> flushed (w_chans w) sid.

Lemma flushed_hang_up l s sid : flushed l sid -> flushed (hang_up l s) sid.
Proof. intros F. apply chan_at_hang_up; [exact F|]. intros c [QE _]. now split. Qed.

Lemma alive_not_flushed l sid : alive l sid -> flushed l sid -> False.
Proof. intros (c & G & A) F. destruct (F _ G). congruence. Qed.

Theorem step_flushed w t w' : inv_cf w -> inv_no_exit w -> inv_fwd_alive w -> inv_flushed w -> step w t = Some w' -> inv_flushed w'.
Proof.
  intros CF NE K Q H. step_cases H; try open_start AT.
  all: try (destruct (cf_no_iter_step _ _ _ CF TH); try subst prog; cbn; eauto; fail).
  all: intros qsid G'; simp_step.
  (* the entry at chan_tid qsid is the one it was, or the one the rule has put: HS_exit, HS_disconnected *)
  all: repeat (apply get_put_inv in G'; destruct G' as [[? E]|[? G']]; [try discriminate E|]).
  all: try (exact (Q _ G')).
  - (* CS_subscribed: the thread of sid starts anew *) apply chan_at_put_other; [exact (Q _ G')|congruence].
  - (* CS_unsub_ctx *) apply flushed_hang_up, Q, G'.
  - (* RS_forward: into a live channel, whose thread has therefore not ended *)
    apply chan_at_put_other; [exact (Q _ G')|intros ->].
    exact (alive_not_flushed _ _ (forwarding_alive _ _ _ _ _ _ _ _ K TH AT) (Q _ G')).
  - (* RS_forwarded *)
    apply chan_at_put_other; [exact (Q _ G')|intros ->].
    exact (alive_not_flushed _ _ (forwarding_alive _ _ _ _ _ _ _ _ K TH AT) (Q _ G')).
  - (* RS_clear_ctx *) apply flushed_hang_up, Q, G'.
  - (* HS_deliver: from a channel that is not empty, whose thread has therefore not ended *)
    apply chan_at_put_other; [exact (Q _ G')|intros ->]. destruct (Q _ G' _ CHAN) as [QE _].
    congruence.
  - (* HS_exit: no exit marker is ever queued *) destruct (NE _ _ CHAN). rewrite HEAD. now left.
  - (* HS_exit, the other thread entry *) destruct (NE _ _ CHAN). rewrite HEAD. now left.
  - (* HS_disconnected *) injection E as ->. intros c0 G0. split; congruence.
Qed.

Theorem reachable_cf reducers mws progs w : Forall (Forall cf_call) progs ->
  reachable cfg reducers mws progs w -> inv_cf w.
Proof.
  intros FP. apply reachable_kinds. revert FP. apply Forall_impl. apply Forall_impl, cf_k_call.
Qed.

Theorem reachable_no_exit reducers mws progs w : Forall (Forall cf_call) progs ->
  reachable cfg reducers mws progs w -> inv_no_exit w.
Proof.
  intros FP. apply reachable_ind; [|intros; eapply step_no_exit; eauto using reachable_cf].
  intros sid c G. discriminate G.
Qed.

Theorem reachable_fwd_alive reducers mws progs w : Forall (Forall cf_call) progs ->
  reachable cfg reducers mws progs w -> inv_fwd_alive w.
Proof.
  intros FP. apply reachable_ind; [|intros; eapply step_fwd_alive; eauto using reachable_cf].
  intros pc G. now apply init_reducer_pc in G as ->.
Qed.

Theorem reachable_flushed reducers mws progs w : Forall (Forall cf_call) progs ->
  reachable cfg reducers mws progs w -> inv_flushed w.
Proof.
  intros FP. apply reachable_ind;
    [|intros; eapply step_flushed; eauto using reachable_cf, reachable_no_exit, reachable_fwd_alive].
  intros sid G. apply init_threads in G as [(p & _ & E & _)|[_ E]]; discriminate E.
Qed.

(* C10: once the thread of a channeled subscriber has ended, its channel is disconnected and
   empty - nothing that was queued for it is left undelivered - and with the blocking policy what
   it received is exactly what the reducer forwarded to it *)
Theorem ended_means_flushed reducers mws progs w sid c : Forall (Forall cf_call) progs ->
  reachable cfg reducers mws progs w ->
  get_thread (w_threads w) (chan_tid sid) = Some (TChan sid true) ->
  get_chan (w_chans w) sid = Some c ->
  q c = [] /\ tx_alive c = false /\
  (pol c = Block -> subsends sid (w_hist w) = subrecvs sid (w_hist w)).
Proof.
  intros FP R G GC. destruct (reachable_flushed _ _ _ _ FP R _ G _ GC) as [QE A]. split; [exact QE|split; [exact A|]].
  intros B. destruct (reachable_subq cfg reducers mws progs w R sid c GC) as [_ L].
  rewrite (L B). unfold qacts. rewrite QE. reflexivity.
Qed.

(* unsubscribe() of a channeled subscriber and the shutdown release get past their join only when
   that thread has ended *)
Lemma unsub_join_needs_end w t r prog sid f w' :
  get_thread (w_threads w) (chan_tid sid) = Some (TChan sid f) ->
  step_client w t r prog (PUnsubJoin sid) = Some w' -> f = true.
Proof. unfold step_client, chan_thread_finished. intros ->. destruct f; [reflexivity|discriminate]. Qed.
Lemma clear_join_needs_end w sid rest f w' :
  get_thread (w_threads w) (chan_tid sid) = Some (TChan sid f) ->
  step_reducer cfg w (RClearJoin sid rest) = Some w' -> f = true.
Proof. unfold step_reducer, chan_thread_finished. intros ->. destruct f; [reflexivity|discriminate]. Qed.
Lemma ended_thread_silent w t sid : get_thread (w_threads w) t = Some (TChan sid true) -> step w t = None.
Proof. unfold World.step. intros ->. reflexivity. Qed.
End WorldFlush.
