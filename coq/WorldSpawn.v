(* WorldSpawn.v — causality of tasks (C11 "after the action that produced it", "on a worker"):
   whatever a pool worker does - running its effect, invoking and returning from the dispatches of
   a thunk body or of an Effect::Action, panicking - it does after the event that handed it to
   the pool (ESpawn); and the reducer hands out the effects of an action only while it is
   processing that action, i.e. after it took it from the queue. Every program, every schedule. *)
From RS Require Import Base Pipeline Script World WorldTactics WorldStep Hist WorldProofs.

Section WorldSpawn.
Context {State : Type}.
Variable cfg : wconfig (State := State).
Notation step := (step cfg).
Notation event := (event (State := State)).
Implicit Types w : World.world (State := State).
Implicit Types h : list event.

(* pool workers live at the even identifiers from 1000 on *)
Definition wid (t : N) : bool := N.leb 1000 t && N.even t.

(* the thread an API-level event belongs to (reducer-context and channeled callbacks: none) *)
Definition ev_by (e : event) : option N :=
  match e with
  | EInv t _ | ERet t _ _ | EPanic t => Some t
  | ECb (XThread t) _ => Some t
  | _ => None
  end.
Definition is_spawn (t : N) (e : event) : bool :=
  match e with ESpawn _ t' => N.eqb t' t | _ => false end.
Definition spawned (t : N) h : bool := existsb (is_spawn t) h.

Fixpoint acts_after_spawn h : Prop :=
  match h with
  | [] => True
  | e :: r =>
      match ev_by e with
      | Some t => wid t = true -> spawned t r = true
      | None => True
      end /\ acts_after_spawn r
  end.

Definition thr_spawned w : Prop :=
  forall t th, get_thread (w_threads w) t = Some th -> wid t = true -> spawned t (w_hist w) = true.

Definition rpc_action (pc : rpc (State := State)) : option aid :=
  match pc with
  | RBeforeReduce a | RReduce a _ | RWrite a _ _ _ | RBeforeEffect a _ _ _ | RSpawn a _ _ _
  | RBeforeDispatch a _ | RSnapshot a _ | RNotify a _ _ _ | RNotifySend a _ _ _ _ _ => Some a
  | _ => None
  end.
Definition taken_ok w : Prop :=
  forall pc a, get_thread (w_threads w) reducer_tid = Some (TReducer pc) -> rpc_action pc = Some a ->
    In (EDeq (IAct a)) (w_hist w).

Definition inv_sp w : Prop := acts_after_spawn (w_hist w) /\ thr_spawned w /\ taken_ok w.

Definition by_ok (t : N) (e : event) : bool :=
  match ev_by e with Some t' => N.eqb t' t | None => true end.

Lemma spawned_app t l h : spawned t h = true -> spawned t (l ++ h) = true.
Proof. unfold spawned. intros E. rewrite existsb_app, E. apply orb_true_r. Qed.

(* in this file the new part l of a history is newest first (`w_hist w1 = l ++ w_hist w0`) and the
   classes of events are boolean; `forallb_rev` takes a step's `rev evs` there *)
Lemma aas_ext h l t : forallb (by_ok t) l = true -> (wid t = true -> spawned t h = true) ->
  acts_after_spawn h -> acts_after_spawn (l ++ h).
Proof.
  intros Q S A. induction l as [|e r IH]; [exact A|]. cbn [forallb] in Q. apply andb_true_iff in Q.
  destruct Q as [Q1 Q2]. cbn [app acts_after_spawn]. split; [|auto].
  unfold by_ok in Q1. destruct (ev_by e) as [t'|]; [|exact I]. apply N.eqb_eq in Q1. subst t'.
  intros W. apply spawned_app. auto.
Qed.

(* an event of t itself *)
#[local] Hint Extern 1 (by_ok _ _ = true) => apply N.eqb_refl : evs.

Lemma by_ok_cb t x (l : list (cb State aid)) : (match x with XThread t' => N.eqb t' t | _ => true end) = true ->
  forallb (by_ok t) (rev (map (ECb x) l)) = true.
Proof. intros X. apply forallb_rev, Forall_cb_events. intros c. destruct x; auto. Qed.
Lemma by_ok_none t (l : list event) : (forall e, In e l -> ev_by e = None) -> forallb (by_ok t) l = true.
Proof.
  induction l as [|e r IH]; [reflexivity|]. intros H. cbn [forallb]. rewrite IH by (intros; apply H; now right).
  unfold by_ok. rewrite (H e (or_introl eq_refl)). reflexivity.
Qed.
Lemma by_ok_dq t x sr dr : forallb (by_ok t) (rev (dq_events (State := State) x sr dr)) = true.
Proof. apply forallb_rev. auto with evs. Qed.
Lemma by_ok_sub t s x sr dr : forallb (by_ok t) (rev (sub_events (State := State) s x sr dr)) = true.
Proof. apply forallb_rev. auto with evs. Qed.

Lemma sp_ext w0 w1 l t th0 : get_thread (w_threads w0) t = Some th0 ->
  w_hist w1 = l ++ w_hist w0 -> forallb (by_ok t) l = true ->
  (forall t' th', get_thread (w_threads w1) t' = Some th' ->
     (exists th'', get_thread (w_threads w0) t' = Some th'') \/ wid t' = false \/ spawned t' l = true) ->
  (forall pc a, get_thread (w_threads w1) reducer_tid = Some (TReducer pc) -> rpc_action pc = Some a ->
     In (EDeq (IAct a)) l \/
     exists pc0, get_thread (w_threads w0) reducer_tid = Some (TReducer pc0) /\ rpc_action pc0 = Some a) ->
  inv_sp w0 -> inv_sp w1.
Proof.
  intros G E Q TH RD (A & S & K). unfold inv_sp. rewrite E. split; [|split].
  - apply (aas_ext _ l t Q); [intros W; exact (S t th0 G W)|exact A].
  - intros t' th' G' W. rewrite E.
    destruct (TH t' th' G') as [(th'' & G0)|[F|SP]].
    + apply spawned_app. eapply S; eauto.
    + congruence.
    + unfold spawned in *. rewrite existsb_app, SP. reflexivity.
  - intros pc a G' RA. rewrite E. apply in_or_app. destruct (RD pc a G' RA) as [X|(pc0 & G0 & R0)]; [now left|right].
    eapply K; eauto.
Qed.

Lemma wid_chan s : wid (chan_tid s) = false.
Proof. unfold wid. rewrite chan_tid_odd. apply andb_false_r. Qed.
Lemma wid_reducer : wid reducer_tid = false.
Proof. reflexivity. Qed.

(* `inv_sp` through a single phase of a send; `step_sp` does not go through these two *)
Lemma dq_phase_sp w x ph w1 sr t th0 : get_thread (w_threads w) t = Some th0 ->
  dq_phase w x ph = Some (w1, sr) -> inv_sp w -> inv_sp w1.
Proof.
  intros G H. apply dq_phase_inv in H. destruct H as (dq' & dr & _ & ->).
  eapply (sp_ext w _ _ t th0 G); [reflexivity|apply by_ok_dq|eauto|eauto].
Qed.
Lemma sub_phase_sp w s x ph w1 sr t th0 : get_thread (w_threads w) t = Some th0 ->
  sub_phase w s x ph = Some (w1, sr) -> inv_sp w -> inv_sp w1.
Proof.
  intros G H. apply sub_phase_inv in H. destruct H as [(_ & -> & _)|(c & c' & dr & _ & _ & ->)]; [auto|].
  eapply (sp_ext w _ _ t th0 G); [reflexivity|apply by_ok_sub|eauto|eauto].
Qed.

Lemma spawned_in t k (evs : list event) : In (ESpawn k t) evs -> spawned t (rev evs) = true.
Proof.
  intros I. apply existsb_exists. exists (ESpawn k t). split; [now apply -> in_rev|apply N.eqb_refl].
Qed.

Theorem step_sp w t w' : inv_sp w -> step w t = Some w' -> inv_sp w'.
Proof.
  intros IV H. pose proof (fun t' pc' => step_keeps_reducer cfg w t w' t' pc' H) as RK. step_rules H Hh; try open_at AT.
  all: eapply sp_ext; [exact TH|exact Hh|apply forallb_rev; auto with evs| | |exact IV]; simp_step.
  (* a client or a channel thread leaves the reducer where it is *)
  all: try (intros pc' a' G' RA; apply RK in G'; [eauto|congruence]; fail).
  (* the reducer goes on with its action, takes one or ends one; its next pc may depend on what is left to do *)
  all: try (intros pc' a' G'; rewrite get_put_same in G'; injection G' as <-; autounfold with next_pc;
            repeat break_goal_match; intros [= ->]; eauto using in_eq; fail).
  (* the table: the entry of t is replaced; a second new entry is a channel
     thread or a spawned worker *)
  all: try (intros t' th' G'; apply get_put_inv in G' as [[-> _]|[_ G']]; [left; eauto|];
            try apply get_put_inv in G' as [[-> _]|[_ G']];
            first [left; eauto; fail|right; left; apply wid_chan|right; right; eapply spawned_in, in_eq]; fail).
  - (* HS_deliver: no entry changes *) eauto.
Qed.

Lemma init_sp reducers mws progs : (length progs <= 100)%nat -> inv_sp (init_world cfg reducers mws progs).
Proof.
  intros L. split; [exact I|split].
  - intros t th G W. apply init_threads in G. destruct G as [(_ & _ & _ & LT)|[-> _]]; [|discriminate W].
    apply andb_true_iff in W. destruct W as [W _]. apply N.leb_le in W. lia.
  - intros pc a G RA. rewrite init_reducer in G by exact L. injection G as <-. discriminate RA.
Qed.

Theorem reachable_sp reducers mws progs w : (length progs <= 100)%nat ->
  reachable cfg reducers mws progs w -> inv_sp w.
Proof. intros L. apply reachable_ind; [now apply init_sp|intros; eapply step_sp; eauto]. Qed.

(* C11_worker_acts_after_spawn *)
Theorem worker_acts_after_spawn reducers mws progs w h2 e h1 t : (length progs <= 100)%nat ->
  reachable cfg reducers mws progs w -> w_hist w = h2 ++ e :: h1 -> ev_by e = Some t -> wid t = true ->
  spawned t h1 = true.
Proof.
  intros L R E B W. destruct (reachable_sp _ _ _ _ L R) as (A & _ & _). rewrite E in A. clear E.
  induction h2 as [|x r IH]; cbn [app acts_after_spawn] in A; [|exact (IH (proj2 A))].
  destruct A as [A _]. rewrite B in A. auto.
Qed.

(* C11_effects_spawned_while_processing *)
Theorem reducer_works_on_taken_action reducers mws progs w pc a : (length progs <= 100)%nat ->
  reachable cfg reducers mws progs w ->
  get_thread (w_threads w) reducer_tid = Some (TReducer pc) -> rpc_action pc = Some a ->
  In (EDeq (IAct a)) (w_hist w).
Proof. intros L R G RA. destruct (reachable_sp _ _ _ _ L R) as (_ & _ & K). eapply K; eauto. Qed.

End WorldSpawn.
