(* WorldLocks.v — the dispatch lock (TX) and the subscribers lock (SUBS) are each held by at most
   one thread in every reachable world (C13). A lock is held exactly by the threads whose pc says
   so; a step that acquires one is enabled only when nobody holds it. *)
From RS Require Import Base World WorldTactics WorldStep WorldProofs.

Section WorldLocks.
Context {State : Type}.
Variable cfg : wconfig (State := State).
Notation step := (step cfg).
Notation thread := (thread (State := State)).
Implicit Types w : World.world (State := State).

Definition excl (f : thread -> bool) (ths : list (N * thread)) : Prop :=
  forall t1 t2 th1 th2, get_thread ths t1 = Some th1 -> get_thread ths t2 = Some th2 ->
    f th1 = true -> f th2 = true -> t1 = t2.

Lemma excl_put_free f ths t th : excl f ths -> f th = false -> excl f (put_thread ths t th).
Proof.
  intros E F t1 t2 th1 th2 G1 G2 H1 H2. apply get_put_inv in G1. apply get_put_inv in G2.
  destruct G1 as [[-> ->]|[_ G1]], G2 as [[-> ->]|[_ G2]]; try congruence. eauto.
Qed.
Lemma excl_put_keep f ths t th0 th : excl f ths -> get_thread ths t = Some th0 -> f th0 = true ->
  excl f (put_thread ths t th).
Proof.
  intros E G0 F0 t1 t2 th1 th2 G1 G2 H1 H2. apply get_put_inv in G1. apply get_put_inv in G2.
  destruct G1 as [[-> ->]|[_ G1]], G2 as [[-> ->]|[_ G2]]; eauto.
Qed.
Lemma excl_put_take f ths t th : negb (existsb (fun p => f (snd p)) ths) = true -> excl f (put_thread ths t th).
Proof.
  intros X t1 t2 th1 th2 G1 G2 H1 H2. apply get_put_inv in G1. apply get_put_inv in G2.
  destruct G1 as [[-> ->]|[_ G1]], G2 as [[-> ->]|[_ G2]];
    try pose proof (free_get f _ _ _ X G1); try pose proof (free_get f _ _ _ X G2); congruence.
Qed.

Definition inv_locks w : Prop := excl holds_tx (w_threads w) /\ excl holds_subs (w_threads w).

Theorem step_locks w t w' : inv_locks w -> step w t = Some w' -> inv_locks w'.
Proof.
  intros [ET ES] H. step_cases H; try open_at AT; unfold inv_locks; simp_step.
  all: split.
  (* most rules leave their thread, and any thread they create, outside the lock, whatever the call,
     flag or list the new pc depends on *)
  all: try (repeat (apply excl_put_free; [|autounfold with next_pc; cbn; repeat break_goal_match; reflexivity]); assumption).
  (* the others are rules of a thread that holds the lock ... *)
  all: try (eapply excl_put_keep; [eassumption|eassumption|reflexivity]).
  (* ... or that takes it, free: CS_send, CS_close_send, CS_unsub_chan, CS_unsub_send, RS_clear_lock *)
  all: apply excl_put_take; assumption.
Qed.

Theorem reachable_locks reducers mws progs w : reachable cfg reducers mws progs w -> inv_locks w.
Proof.
  apply reachable_ind; [|intros; eapply step_locks; eauto].
  (* nobody holds a lock *)
  split; intros t1 t2 th1 th2 G1 _ H1 _; apply init_threads in G1;
    destruct G1 as [(p & _ & -> & _)|[_ ->]]; discriminate H1.
Qed.
End WorldLocks.
