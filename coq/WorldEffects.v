(* WorldEffects.v — every pool task runs its effect at most once (C11); worker ids are fresh
   (`fresh_ok`). *)
From RS Require Import Base Pipeline World WorldTactics WorldStep Hist WorldProofs WorldMetrics.

Section WorldEffects.
Context {State : Type}.
Variable cfg : wconfig (State := State).
Variable t0 : N.
Notation step := (step cfg).
Notation event := (event (State := State)).
Implicit Types w : World.world (State := State).
Implicit Types h : list event.

Definition c_run (e : event) : N :=
  match e with ECb (XThread t) (CbEffectRun _) => if N.eqb t t0 then 1 else 0 | _ => 0 end.
Definition runs h : N := total c_run h.

(* a worker still at its start has logged no run; any thread has logged at most one *)
Definition eff_at (o : option (thread (State := State))) (n : N) : Prop :=
  match o with
  | Some (TClient _ _ (PTaskStart _ _)) | None => n = 0%N
  | Some _ => (n <= 1)%N
  end.
(* `eff_at` apart, so that the match (one branch per pc once expanded) stays folded while the
   fields of the world after a step are computed *)
Definition eff_ok w : Prop := eff_at (get_thread (w_threads w) t0) (runs (w_hist w)).

Definition fresh_ok w : Prop :=
  N.even (w_next_tid w) = true /\ (1000 <= w_next_tid w)%N /\
  forall t, (w_next_tid w <= t)%N -> N.even t = true -> get_thread (w_threads w) t = None.

Theorem step_fresh w t w' : fresh_ok w -> step w t = Some w' -> fresh_ok w'.
Proof.
  intros (EV & GE & FR) H.
  assert (NX : N.even (w_next_tid w') = true /\ (w_next_tid w <= w_next_tid w')%N).
  { destruct (step_next_tid cfg _ _ _ H) as [->| ->]; rewrite ?N.even_add, EV; split; auto; lia. }
  destruct NX as [EV' LE']. split; [exact EV'|split; [lia|]]. intros t1 LE EV1.
  destruct (get_thread (w_threads w') t1) as [th1|] eqn:G; [exfalso|reflexivity].
  destruct (step_entry cfg _ _ _ _ _ H G) as [(th & TH & -> & _)|[[(sid & -> & _)|(-> & N & _)]|G0]].
  - (* the stepping thread is not new *) rewrite FR in TH by (lia || exact EV1). discriminate.
  - (* subscriber threads have odd ids *) rewrite chan_tid_odd in EV1. discriminate.
  - lia.
  - rewrite FR in G0 by (lia || exact EV1). discriminate.
Qed.

Lemma init_fresh reducers mws progs : (length progs <= 100)%nat -> fresh_ok (init_world cfg reducers mws progs).
Proof.
  intros L. split; [reflexivity|split; [cbn; unfold first_worker_tid; lia|]].
  intros t LE EV. destruct (get_thread _ t) as [th|] eqn:G; [exfalso|reflexivity].
  apply init_threads in G. cbn [init_world w_next_tid] in LE. unfold first_worker_tid, reducer_tid in *.
  destruct G as [(p & _ & _ & B)|[-> _]]; lia.
Qed.

Theorem reachable_fresh reducers mws progs w :
  (length progs <= 100)%nat -> reachable cfg reducers mws progs w -> fresh_ok w.
Proof. intros L. apply reachable_ind; [now apply init_fresh|intros; eapply step_fresh; eauto]. Qed.

Lemma eff_le w : eff_ok w -> (runs (w_hist w) <= 1)%N.
Proof. unfold eff_ok, eff_at. destruct (get_thread (w_threads w) t0) as [[? ? []| |]|]; lia. Qed.

Lemma eff_zero o : eff_at o 0.
Proof. destruct o as [[? ? []| |]|]; cbn; lia. Qed.
Lemma eff_put tbl t th n : eff_at (get_thread tbl t0) n -> (t = t0 -> eff_at (Some th) n) ->
  eff_at (get_thread (put_thread tbl t th) t0) n.
Proof.
  intros E N. destruct (N.eq_dec t0 t) as [->|NE]; [rewrite get_put_same; auto|now rewrite get_put_other].
Qed.

(* only the first step of a pool worker logs a run, and no step leads back to the start; a new
   worker gets an identifier at which nothing lived *)
Theorem step_eff w t w' : fresh_ok w -> eff_ok w -> step w t = Some w' -> eff_ok w'.
Proof.
  intros (EV & _ & FR) EFF H. pose proof (eff_le _ EFF) as LE. unfold eff_ok, runs in *.
  assert (NEW : forall th, w_next_tid w = t0 -> eff_at (Some th) (total c_run (w_hist w))).
  { intros th <-. rewrite FR in EFF by (lia || exact EV). rewrite EFF. apply eff_zero. }
  step_rules H Hh; rewrite Hh; clear Hh; simp_step.
  all: try (rewrite total_quiet by auto with evs; repeat apply eff_put; first [exact EFF|apply NEW|intros _]).
  all: try (destruct stop); try exact LE.
  - (* CS_invoke: `invoke_pc` is never PTaskStart *) destruct c; try exact LE; cbn; destruct (memN _ _); exact LE.
  - (* CS_task_run *)
    rewrite total_hist. cbn [total c_run]. destruct (N.eqb_spec t t0) as [->|NE].
    + rewrite get_put_same. rewrite TH in EFF. cbn in *. rewrite EFF. lia.
    + rewrite get_put_other by congruence. exact EFF.
Qed.

End WorldEffects.

(* C11_at_most_once *)
Theorem effect_runs_at_most_once {State : Type} (cfg : wconfig (State := State)) reducers mws progs w t0 :
  (length progs <= 100)%nat -> reachable cfg reducers mws progs w ->
  (runs t0 (w_hist w) <= 1)%N.
Proof.
  intros L R. apply (eff_le t0). revert w R. apply reachable_ind; [apply eff_zero|].
  intros w1 t w2 R. apply step_eff. now apply (reachable_fresh cfg reducers mws progs).
Qed.
